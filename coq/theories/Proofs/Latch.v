(* Latch.v — C11: a dead connection handle stays dead and never touches the transport again. *)
From Minimq Require Import Reader Arena Core Machine Io Effects Shapes Step.

(* (1) on a dead handle every operation returns with the world unchanged: no read, write or flush is logged *)
Lemma dead_drive_packet : forall fuel w, w_live w = false -> drive_packet fuel w = (w, OFail EDisconnected).
Proof. intros fuel w H. unfold drive_packet. now rewrite H. Qed.

Lemma dead_wait : forall fuel w, w_live w = false -> wait_for_progress fuel w = (w, match fuel with O => OFuel | S _ => OFail EDisconnected end).
Proof. intros fuel w H. destruct fuel; cbn [wait_for_progress]; [reflexivity|]. now rewrite dead_drive_packet. Qed.

Lemma dead_poll : forall fuel w, w_live w = false -> op_poll (S fuel) w = (w, OFail EDisconnected).
Proof. intros. unfold op_poll. now rewrite dead_wait. Qed.
Lemma dead_recv : forall fuel w, w_live w = false -> op_recv (S fuel) w = (w, OFail EDisconnected).
Proof. intros. cbn [op_recv]. now rewrite dead_wait. Qed.
Lemma dead_drive : forall fuel w, w_live w = false -> op_drive fuel w = (w, OFail EDisconnected).
Proof. intros. unfold op_drive. now rewrite dead_drive_packet. Qed.
Lemma dead_publish : forall fuel r w, w_live w = false -> op_publish fuel r w = (w, OFail EDisconnected).
Proof. intros. unfold op_publish. now rewrite H. Qed.
Lemma dead_subscribe : forall fuel t ps w, w_live w = false -> op_subscribe fuel t ps w = (w, OFail EDisconnected).
Proof. intros. unfold op_subscribe. now rewrite H. Qed.
Lemma dead_unsubscribe : forall fuel t ps w, w_live w = false -> op_unsubscribe fuel t ps w = (w, OFail EDisconnected).
Proof. intros. unfold op_unsubscribe. now rewrite H. Qed.
Lemma dead_disconnect : forall fuel d w, w_live w = false -> op_disconnect fuel d w = (w, ODone tt).
Proof. intros. unfold op_disconnect. now rewrite H. Qed.

(* (2) an operation that returns one of the three fatal errors leaves the handle dead *)
Definition fatal (e : err) : bool :=
  match e with ETransport | EDisconnected | EInvalidPacket => true | _ => false end.

Definition latched {A} (r : world * outcome A) : Prop :=
  match snd r with OFail e => fatal e = true -> w_live (fst r) = false | _ => True end.

Lemma latched_dead : forall {A} w e, w_live w = false -> latched (w, OFail e : outcome A).
Proof. intros A w e H _. exact H. Qed.
Lemma latched_local : forall {A} w e, fatal e = false -> latched (w, OFail e : outcome A).
Proof. intros A w e H F. cbn [snd] in F. congruence. Qed.

Lemma latched_then : forall {A B} (r : world * outcome A) (k : world -> A -> world * outcome B),
  latched r -> (forall w a, latched (k w a)) ->
  latched (let '(w, o) := r in
           match o with
           | ODone a => k w a
           | OFail e => (w, OFail e) | OCancel => (w, OCancel) | OFuel => (w, OFuel) | OPanic => (w, OPanic)
           end).
Proof. intros A B [w o] k H Hk. destruct o; try exact H; try exact I. apply Hk. Qed.

Lemma local_err_not_fatal : forall e, local_err e -> fatal e = false.
Proof. now destruct e. Qed.

Lemma size_err_local : forall e, size_err e -> fatal e = false.
Proof. intros e [->|[se ->]]; [reflexivity | apply local_err_not_fatal, err_of_serr_local]. Qed.

Lemma queue_err_local : forall e, e = EInflightExhausted \/ size_err e -> fatal e = false.
Proof. intros e [->|H]; [reflexivity|now apply size_err_local]. Qed.

Lemma latched_perform : forall st now w, latched (perform_outbound_step st now w).
Proof.
  intros. destruct (perform_outbound_step st now w) as [w' r] eqn:E. apply perform_cases in E.
  destruct r as [b|e| | |]; try exact I. destruct E as [L|[->|S]]; [now apply latched_dead|now apply latched_local|].
  apply latched_local. now apply size_err_local.
Qed.

Lemma latched_ping : forall {A} s now w e, snd (maybe_queue_pingreq s now) = Some e -> latched (w, OFail e : outcome A).
Proof. intros A s now w e H. apply latched_local, queue_err_local. eapply maybe_queue_pingreq_err; exact H. Qed.

Lemma latched_flush_outbound : forall fuel w, latched (flush_outbound fuel w).
Proof.
  induction fuel as [|f IH]; intros w; cbn [flush_outbound]; [exact I|].
  destruct (maybe_queue_pingreq (w_sess w) (w_now w)) as [s1 [e|]] eqn:Em.
  - eapply latched_ping. now rewrite Em.
  - destruct (next_step _) as [st|]; [|exact I]. apply latched_then; [apply latched_perform|]. intros w2 _. apply IH.
Qed.

Lemma hd_dead : forall w, w_live (w_hd w) = false.
Proof. reflexivity. Qed.

Lemma latched_process : forall w, latched (process_received w).
Proof.
  intros. unfold process_received. destruct (negb _); [exact I|].
  destruct (take_packet _) as [[[r' pl] [p|]]|]; try exact I; [|now apply latched_dead].
  pose proof (handle_packet_err (set_reader (w_sess w) r') p) as He.
  destruct (handle_packet _ p) as [s2 [[|]|e]]; try exact I. cbn [snd] in He.
  destruct (He e eq_refl) as [->|[->|[[c ->]|H]]]; try now apply latched_dead.
  - now apply latched_local.
  - assert (F : fatal e = false) by now apply queue_err_local.
    destruct e; try discriminate F; now apply latched_local.
Qed.

Lemma latched_service : forall now w, latched (service now w).
Proof.
  intros. unfold service. destruct (ping_timed_out _ _); [now apply latched_dead|].
  destruct (maybe_queue_pingreq (w_sess w) now) as [s1 [e|]] eqn:Em.
  - eapply latched_ping. now rewrite Em.
  - destruct (next_step _) as [st|]; [|exact I]. apply latched_perform.
Qed.

Lemma latched_drive_loop : forall fuel adv w, latched (drive_loop fuel adv w).
Proof.
  induction fuel as [|f IH]; intros adv w; cbn [drive_loop]; [exact I|].
  apply latched_then; [apply latched_process|]. intros w1 [p|]; [exact I|]. destruct (packet_available _); [apply IH|].
  apply latched_then; [apply latched_service|]. intros w2 a. destruct (next_step _); [apply IH | exact I].
Qed.

Lemma latched_drive_packet : forall fuel w, latched (drive_packet fuel w).
Proof.
  intros. unfold drive_packet. destruct (w_live w) eqn:L; cbn [negb]; [apply latched_drive_loop|now apply latched_dead].
Qed.

Lemma latched_wait : forall fuel w, latched (wait_for_progress fuel w).
Proof.
  induction fuel as [|f IH]; intros w; cbn [wait_for_progress]; [exact I|].
  pose proof (latched_drive_packet (S f) w) as H1. destruct (drive_packet (S f) w) as [w1 r].
  destruct r as [pr| | | |]; try exact H1. destruct pr; try exact I.
  destruct (w_live w1) eqn:L; cbn [negb]; [|now apply latched_dead].
  destruct (fill_packet_reader (S f) _ w1) as [w2 fr]. destruct fr; try apply IH; try exact I. now apply latched_dead.
Qed.

Lemma latched_poll : forall fuel w, latched (op_poll fuel w).
Proof.
  intros. unfold op_poll. apply latched_then; [apply latched_wait|]. intros w1 []; exact I.
Qed.
Lemma latched_recv : forall fuel w, latched (op_recv fuel w).
Proof.
  induction fuel as [|f IH]; intros w; cbn [op_recv]; [exact I|].
  apply latched_then; [apply latched_wait|]. intros w1 []; try exact I. apply IH.
Qed.
Lemma latched_drive : forall fuel w, latched (op_drive fuel w).
Proof.
  intros. unfold op_drive. apply latched_then; [apply latched_drive_packet|]. intros w1 []; exact I.
Qed.

(* disconnect() / disconnect_with(): dead whatever the write and the flush return; OCancel is the future dropped *)
Lemma disconnect_latches : forall fuel d w bs w' r,
  w_live w = true -> disconnect_prepare (w_sess w) d = DPOk bs ->
  op_disconnect fuel d w = (w', r) -> r <> OCancel -> r <> OFuel -> r <> OPanic -> w_live w' = false.
Proof.
  intros fuel d w bs w' r L Hp H Hc Hf Hpn. unfold op_disconnect in H. rewrite L, Hp in H. cbn [negb] in H.
  destruct (write_all fuel bs _) as [w1 r1]. destruct r1; inversion H; subst; try contradiction; [|reflexivity].
  destruct (io_flush w1) as [w2 fr]. destruct fr; inversion H; subst; try reflexivity. contradiction.
Qed.

Lemma latched_bindu : forall {A} (r : world * outcome unit) (k : world -> world * outcome A),
  latched r -> (forall w, latched (k w)) -> latched (bindu r k).
Proof. intros A r k H Hk. apply (latched_then r (fun w _ => k w) H). intros w _. apply Hk. Qed.

Lemma write_all_live : forall fuel bs w, w_live (fst (write_all fuel bs w)) = w_live w.
Proof. intros. apply fr_live, write_all_frame. Qed.

Lemma latched_finish_mid : forall fuel w m, (forall e, m = MErr e -> fatal e = true -> w_live w = false) -> latched (finish_mid fuel w m).
Proof.
  intros fuel w m Hm. destruct m as [e|o|bs]; cbn [finish_mid].
  - intros H. now apply (Hm e).
  - apply latched_bindu; [apply latched_flush_outbound | intros; exact I].
  - destruct (write_all fuel bs w) as [w1 r]. destruct r as [u|e| | |]; try exact I.
    + destruct (io_flush w1) as [w2 fr]. destruct fr; try exact I. now apply latched_dead.
    + destruct e; try now apply latched_dead. now apply latched_local.
Qed.

(* a middle only refuses locally, except for Disconnected from a QoS 0 publish on a handle that was dead already *)
Lemma publish_middle_fatal : forall s live r s' e, publish_middle s live r = (s', MErr e) -> fatal e = true -> live = false.
Proof.
  intros s live r s' e H Hf. destruct (mid_out_err _ _ _ _ _ _ _ (publish_middle_out _ _ _ _ _ H)) as [Hl|[_ [Hv _]]]; [|exact Hv].
  apply local_err_not_fatal in Hl. congruence.
Qed.

Lemma enqueue_middle_not_fatal : forall s k enc s' e, enqueue_middle s k enc = (s', MErr e) -> fatal e = false.
Proof.
  intros s k enc s' e H. destruct (mid_out_err _ _ _ _ _ _ _ (enqueue_middle_out _ _ _ _ _ H)) as [Hl|[_ [_ Hd]]]; [|discriminate].
  now apply local_err_not_fatal.
Qed.

Lemma latched_publish : forall fuel r w, latched (op_publish fuel r w).
Proof.
  intros. unfold op_publish. destruct (w_live w) eqn:L; cbn [negb]; [|now apply latched_dead].
  apply latched_bindu; [apply latched_flush_outbound|]. intros w1.
  destruct (publish_middle (w_sess w1) (w_live w1) r) as [s2 m] eqn:Em.
  apply latched_finish_mid. intros e -> Hfat. exact (publish_middle_fatal _ _ _ _ _ Em Hfat).
Qed.

Lemma latched_enqueue : forall fuel w k enc, latched (bindu (flush_outbound fuel w) (fun w1 =>
  let '(s2, m) := enqueue_middle (w_sess w1) k enc in finish_mid fuel (upd_sess w1 s2) m)).
Proof.
  intros. apply latched_bindu; [apply latched_flush_outbound|]. intros w1.
  destruct (enqueue_middle (w_sess w1) k enc) as [s2 m] eqn:Em.
  apply latched_finish_mid. intros e -> Hfat. apply enqueue_middle_not_fatal in Em. congruence.
Qed.

Lemma latched_subscribe : forall fuel t ps w, latched (op_subscribe fuel t ps w).
Proof.
  intros. unfold op_subscribe. destruct (w_live w) eqn:L; cbn [negb]; [|now apply latched_dead].
  destruct t; [now apply latched_local|]. destruct (negb _); [now apply latched_local|]. apply latched_enqueue.
Qed.

Lemma latched_unsubscribe : forall fuel t ps w, latched (op_unsubscribe fuel t ps w).
Proof.
  intros. unfold op_unsubscribe. destruct (w_live w) eqn:L; cbn [negb]; [|now apply latched_dead].
  destruct t; [now apply latched_local|]. destruct (negb _); [now apply latched_local|]. apply latched_enqueue.
Qed.
