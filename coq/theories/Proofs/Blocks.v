(* Blocks.v — the machine as a sequence of basic blocks.  `run P w w'`: the world w' is reached from w by calls of the I/O
   primitives and by the places where Machine.v updates the session or a ghost field, each under those of the guards
   holding there that a proof uses; `P` holds of every world in which an inbound packet is handed to the session.
   Every function of the machine runs from its argument to its result (`*_run`), which is the one walk through
   Machine.v: those that never call `process_received` for every `P`, the others for the `P` that is always true.  A
   relation between the world before and after that is reflexive, transitive and holds across each block therefore
   holds across every function (`induction` on `run`); an invariant I is the relation `I w -> I w'`. *)
From Coq Require Import List NArith.
From Minimq Require Import Bytes Ser Reader Arena Core Machine Io.
Import ListNotations.
Local Open Scope N_scope.

Section Run.
Variable P : world -> Prop.

Inductive run : world -> world -> Prop :=
| run_refl : forall w, run w w
| run_trans : forall a b c, run a b -> run b c -> run a c
| run_write : forall bs w, run w (fst (io_write bs w))
| run_flush : forall w, run w (fst (io_flush w))
| run_read : forall win d w, run w (fst (io_read win d w))
| run_hd : forall w, run w (w_hd w)      (* the connection given up after an I/O primitive failed *)
| run_ping : forall w now, run w (upd_sess w (fst (maybe_queue_pingreq (w_sess w) now)))
| run_written : forall w st p bs wr len n, w_live w = true ->
  next_step (s_ob (w_sess w)) = Some st -> prepare_step (w_sess w) st = PWrite p bs wr len -> n <> 0 ->
  run w (upd_sess w (fst (set_written (w_sess w) p (wr + n) len)))
| run_flushed : forall w p now, w_live w = true -> run w (upd_sess w (fst (complete_flush (w_sess w) p now)))
| run_bad_packet : forall w r' pl, packet_available (s_reader (w_sess w)) = true ->
  take_packet (s_reader (w_sess w)) = Some (r', pl, None) -> run w (upd_sess w (set_reader (w_sess w) r'))
| run_packet : forall w r' pl p, P w -> packet_available (s_reader (w_sess w)) = true ->
  take_packet (s_reader (w_sess w)) = Some (r', pl, Some p) ->
  run w (upd_drained (upd_envok (upd_sess w (fst (handle_packet (set_reader (w_sess w) r') p)))
                              (w_envok w && ack_type_ok (set_reader (w_sess w) r') p))
                   (w_drained w && match next_step (s_ob (w_sess w)) with None => true | Some _ => false end))
| run_window : forall w r' x, packet_available (s_reader (w_sess w)) = false ->
  receive_buffer (s_reader (w_sess w)) = (r', x) -> run w (upd_sess w (set_reader (w_sess w) r'))
| run_log : forall w l, run w (upd_log w l)      (* `fill_go` logs that its timer fired before the read *)
| run_commit : forall w r' win dl w1 b d, packet_available (s_reader (w_sess w)) = false ->
  receive_buffer (s_reader (w_sess w)) = (r', Some win) -> win <> 0 ->
  io_read win dl (upd_sess w (set_reader (w_sess w) r')) = (w1, RData (b :: d)) ->
  run w1 (upd_sess w1 (set_reader (w_sess w1) (commit (s_reader (w_sess w1)) (b :: d))))
| run_mark : forall b a l, run a (mark_partial b a l)
| run_activity : forall w,
  run w (upd_sess w (set_rt (w_sess w) (note_outbound_activity (s_rt (w_sess w)) (w_now w))))
| run_publish : forall w r, run w (upd_sess w (fst (publish_middle (w_sess w) (w_live w) r)))
| run_subscribe : forall w t ps, run w (upd_sess w (fst (subscribe_middle (w_sess w) t ps)))
| run_unsubscribe : forall w t ps, run w (upd_sess w (fst (unsubscribe_middle (w_sess w) t ps)))
| run_poison : forall w, run w (upd_poison w true)
| run_connect_start : forall w,
  let s0 := w_sess w in
  let s1 := set_ob (set_rt (set_reader s0 (reader_reset (s_reader s0))) (reset_transport (s_rt s0))) (arm_replay (s_ob s0)) in
  run w (upd_sess w (set_ob s1 (compact (s_ob s1))))
| run_timers_cleared : forall w, run w (upd_sess w (set_rt (w_sess w) (rt_with_timers (s_rt (w_sess w)) None None)))
| run_sess_hd : forall w, run w (sess_hd w)
| run_connack_reader : forall w r' pl p, take_packet (s_reader (w_sess w)) = Some (r', pl, p) ->
  run w (upd_sess w (set_reader (w_sess w) r'))
| run_connack : forall w p,
  run w (let '(s6, cr) := connack_process (w_sess w) p (w_now w) in
       match cr with
       | CAOk resumed => upd_envok (upd_sess w s6)
           (w_envok w && (if resumed then unresolved_publishes (s_ob s6) <=? rt_maxquota (s_rt s6) else true))
       | CAErr _ _ => upd_sess w s6
       end).

Lemma write_all_run : forall fuel bs w, run w (fst (write_all fuel bs w)).
Proof.
  induction fuel as [|f IH]; intros bs w; cbn [write_all]; [apply run_refl|].
  destruct bs as [|b bs']; [apply run_refl|].
  pose proof (run_write (b :: bs') w) as Hs. destruct (io_write (b :: bs') w) as [w1 r]. cbn [fst] in Hs.
  destruct r as [n| |]; try exact Hs. destruct (N.eqb n 0); [exact Hs|]. eapply run_trans; [exact Hs | apply IH].
Qed.

Lemma flush_current_run : forall p now w, run w (fst (flush_current p now w)).
Proof.
  intros. unfold flush_current. destruct (w_live w) eqn:L; cbn [negb]; [|apply run_refl].
  pose proof (run_flush w) as Hs. pose proof (fr_live _ _ (io_flush_frame w)) as Hl.
  destruct (io_flush w) as [w1 r]. cbn [fst] in Hs, Hl. destruct r.
  - pose proof (run_flushed w1 p now (eq_trans Hl L)) as H.
    destruct (complete_flush (w_sess w1) p now) as [s found]. cbn [fst] in H. destruct found; eapply run_trans; eassumption.
  - eapply run_trans; [exact Hs | apply run_hd].
  - exact Hs.
Qed.

Lemma perform_outbound_step_run : forall st now w,
  next_step (s_ob (w_sess w)) = Some st -> run w (fst (perform_outbound_step st now w)).
Proof.
  intros st now w Hn. unfold perform_outbound_step.
  destruct (prepare_step (w_sess w) st) as [p bs written len|p| |e] eqn:Ep; try apply run_refl; [|apply flush_current_run].
  destruct (w_live w) eqn:L; cbn [negb]; [|apply run_refl].
  pose proof (run_write (dropN written bs) w) as Hs.
  pose proof (fr_sess _ _ (io_write_frame (dropN written bs) w)) as Fs.
  pose proof (fr_live _ _ (io_write_frame (dropN written bs) w)) as Fl.
  destruct (io_write (dropN written bs) w) as [w1 r]. cbn [fst] in Hs, Fs, Fl.
  destruct r as [n| |]; [|eapply run_trans; [exact Hs | apply run_hd]|exact Hs].
  destruct (N.eqb_spec n 0) as [|Hn0]; [exact Hs|]. rewrite <- Fs in Hn, Ep.
  pose proof (run_written w1 st p bs written len n (eq_trans Fl L) Hn Ep Hn0) as H.
  destruct (set_written (w_sess w1) p (written + n) len) as [s found]. cbn [fst] in H.
  assert (Hq : run w (upd_sess w1 s)) by (eapply run_trans; eassumption).
  destruct (negb found); [exact Hq|]. destruct (written + n <? len); [exact Hq|].
  eapply run_trans; [exact Hq | apply flush_current_run].
Qed.

Lemma flush_outbound_run : forall fuel w, run w (fst (flush_outbound fuel w)).
Proof.
  induction fuel as [|f IH]; intros w; cbn [flush_outbound]; [apply run_refl|].
  pose proof (run_ping w (w_now w)) as Hp.
  destruct (maybe_queue_pingreq (w_sess w) (w_now w)) as [s1 e]. cbn [fst] in Hp.
  destruct e; [exact Hp|].
  destruct (next_step (s_ob (w_sess (upd_sess w s1)))) as [st|] eqn:En; [|exact Hp].
  pose proof (perform_outbound_step_run st (w_now w) (upd_sess w s1) En) as Hs.
  destruct (perform_outbound_step st (w_now w) (upd_sess w s1)) as [w2 r]. cbn [fst] in Hs.
  destruct r; try (eapply run_trans; eassumption).
  eapply run_trans; [exact Hp|]. eapply run_trans; [exact Hs | apply IH].
Qed.

Lemma service_run : forall now w, run w (fst (service now w)).
Proof.
  intros. unfold service. destruct (ping_timed_out _ _); [apply run_hd|].
  pose proof (run_ping w now) as Hp.
  destruct (maybe_queue_pingreq (w_sess w) now) as [s1 e]. cbn [fst] in Hp.
  destruct e; [exact Hp|].
  destruct (next_step (s_ob (w_sess (upd_sess w s1)))) as [st|] eqn:En; [|exact Hp].
  eapply run_trans; [exact Hp | now apply perform_outbound_step_run].
Qed.

Lemma fill_go_run : forall fuel y d w, run w (fst (fill_go fuel y d w)).
Proof.
  induction fuel as [|f IH]; intros y d w; cbn [fill_go]; [apply run_refl|].
  destruct (packet_available (s_reader (w_sess w))) eqn:Ea; [apply run_refl|].
  destruct (receive_buffer (s_reader (w_sess w))) as [r' x] eqn:Er. pose proof (run_window w r' x Ea Er) as H0.
  destruct x as [win|]; [|exact H0].
  destruct (N.eqb_spec win 0) as [|Hw]; [exact H0|].
  destruct (timer_fired y d _); [eapply run_trans; [exact H0 | apply run_log]|].
  pose proof (run_read win d (upd_sess w (set_reader (w_sess w) r'))) as Hs.
  destruct (io_read win d (upd_sess w (set_reader (w_sess w) r'))) as [w1 r] eqn:Ei. cbn [fst] in Hs.
  assert (H1 : run w w1) by (eapply run_trans; eassumption).
  destruct r as [dd| | |]; try exact H1. destruct dd as [|b dd']; [exact H1|].
  eapply run_trans; [exact H1|]. eapply run_trans; [exact (run_commit w r' win d w1 b dd' Ea Er Hw Ei) | apply IH].
Qed.

Lemma fill_run : forall fuel d w, run w (fst (fill_packet_reader fuel d w)).
Proof. intros. apply fill_go_run. Qed.

Lemma bindu_run : forall {A} (r : world * outcome unit) (k : world -> world * outcome A) w,
  run w (fst r) -> (forall w1, run w1 (fst (k w1))) -> run w (fst (bindu r k)).
Proof.
  intros A [w1 o] k w H Hk. cbn [fst] in H. unfold bindu.
  destruct o; try exact H. eapply run_trans; [exact H | apply Hk].
Qed.

Lemma direct_send_run : forall fuel bs w, run w (fst (direct_send fuel bs w)).
Proof.
  intros. unfold direct_send. apply bindu_run; [apply write_all_run|]. intros w1.
  pose proof (run_flush w1) as H. destruct (io_flush w1) as [w2 r]. destruct r; exact H.
Qed.

Lemma finish_mid_run : forall fuel w m, run w (fst (finish_mid fuel w m)).
Proof.
  intros. destruct m as [e|o|bs]; cbn [finish_mid]; [apply run_refl| |].
  - apply bindu_run; [apply flush_outbound_run | intros; apply run_refl].
  - pose proof (write_all_run fuel bs w) as H. destruct (write_all fuel bs w) as [w1 r]. cbn [fst] in H.
    destruct r as [u|e| | |]; try (eapply run_trans; [exact H | apply run_mark]).
    + pose proof (run_flush w1) as Hs. destruct (io_flush w1) as [w2 fr]. cbn [fst] in Hs.
      assert (H2 : run w w2) by (eapply run_trans; eassumption).
      destruct fr; try exact H2; (eapply run_trans; [exact H2|]); [apply run_activity | apply run_hd].
    + destruct e; try (eapply run_trans; [exact H | apply run_hd]). eapply run_trans; [exact H | apply run_mark].
Qed.

Lemma op_publish_run : forall fuel r w, run w (fst (op_publish fuel r w)).
Proof.
  intros. unfold op_publish. destruct (negb _); [apply run_refl|].
  apply bindu_run; [apply flush_outbound_run|]. intros w1. pose proof (run_publish w1 r) as H.
  destruct (publish_middle (w_sess w1) (w_live w1) r) as [s2 m]. eapply run_trans; [exact H | apply finish_mid_run].
Qed.

Lemma op_subscribe_run : forall fuel t ps w, run w (fst (op_subscribe fuel t ps w)).
Proof.
  intros. unfold op_subscribe. destruct (negb _); [apply run_refl|]. destruct t as [|t0 t]; [apply run_refl|].
  destruct (negb _); [apply run_refl|].
  apply bindu_run; [apply flush_outbound_run|]. intros w1. pose proof (run_subscribe w1 (t0 :: t) ps) as H.
  destruct (subscribe_middle (w_sess w1) (t0 :: t) ps) as [s2 m]. eapply run_trans; [exact H | apply finish_mid_run].
Qed.

Lemma op_unsubscribe_run : forall fuel t ps w, run w (fst (op_unsubscribe fuel t ps w)).
Proof.
  intros. unfold op_unsubscribe. destruct (negb _); [apply run_refl|]. destruct t as [|t0 t]; [apply run_refl|].
  destruct (negb _); [apply run_refl|].
  apply bindu_run; [apply flush_outbound_run|]. intros w1. pose proof (run_unsubscribe w1 (t0 :: t) ps) as H.
  destruct (unsubscribe_middle (w_sess w1) (t0 :: t) ps) as [s2 m]. eapply run_trans; [exact H | apply finish_mid_run].
Qed.

Lemma op_disconnect_run : forall fuel d w, run w (fst (op_disconnect fuel d w)).
Proof.
  intros. unfold op_disconnect. destruct (negb _); [apply run_refl|].
  destruct (disconnect_prepare _ _); [apply run_refl|].
  set (w0 := if has_partial (s_ob (w_sess w)) then upd_poison w true else w).
  assert (H0 : run w w0) by (unfold w0; destruct (has_partial _); [apply run_poison | apply run_refl]).
  pose proof (write_all_run fuel bs w0) as H. destruct (write_all fuel bs w0) as [w1 r]. cbn [fst] in H.
  assert (H1 : run w w1) by (eapply run_trans; eassumption).
  destruct r as [u|e| | |]; try (eapply run_trans; [exact H1 | apply run_mark]).
  - pose proof (run_flush w1) as Hs. destruct (io_flush w1) as [w2 fr]. cbn [fst] in Hs.
    assert (H2 : run w w2) by (eapply run_trans; eassumption).
    destruct fr; try exact H2; (eapply run_trans; [exact H2 | apply run_hd]).
  - eapply run_trans; [exact H1 | apply run_hd].
Qed.

Lemma op_connect_run : forall fuel w, run w (fst (op_connect fuel w)).
Proof.
  intros fuel w. unfold op_connect. pose proof (run_connect_start w) as R02. cbv zeta in R02.
  match type of R02 with run _ (upd_sess _ ?s) => set (s2 := s) in * end.
  destruct (enc_connect _ _) as [off bs|e]; cbn [fst]; [|exact R02].
  apply bindu_run; [eapply run_trans; [exact R02 | apply direct_send_run]|]. intros w3.
  set (w4 := upd_sess w3 _). assert (R4 : run w3 w4) by apply run_timers_cleared.
  pose proof (fill_run fuel None w4) as Hfill. destruct (fill_packet_reader fuel None w4) as [w5 fr]. cbn [fst] in Hfill.
  assert (R5 : run w3 w5) by (eapply run_trans; eassumption).
  destruct fr; cbn [fst]; try exact R5; try (eapply run_trans; [exact R5 | apply run_sess_hd]).
  destruct (take_packet (s_reader (w_sess w5))) as [[[r' pl] p]|] eqn:Et; cbn [fst]; [|eapply run_trans; [exact R5 | apply run_sess_hd]].
  pose proof (run_connack_reader w5 r' pl p Et) as R6.
  pose proof (run_connack (upd_sess w5 (set_reader (w_sess w5) r')) p) as R7.
  cbn [upd_sess w_sess w_now w_envok] in R7.
  destruct (connack_process (set_reader (w_sess w5) r') p (w_now w5)) as [s6 cr].
  assert (R8 : run w3 (match cr with CAOk resumed => _ | CAErr _ _ => _ end)) by (eapply run_trans; [exact R5|]; eapply run_trans; [exact R6 | exact R7]).
  destruct cr as [resumed|e d]; cbn [fst]; [exact R8|]. destruct d; [eapply run_trans; [exact R8 | apply run_sess_hd] | exact R8].
Qed.

End Run.

Lemma process_received_run : forall w, run (fun _ => True) w (fst (process_received w)).
Proof.
  intros. unfold process_received. destruct (packet_available (s_reader (w_sess w))) eqn:Ea; cbn [negb]; [|apply run_refl].
  destruct (take_packet (s_reader (w_sess w))) as [[[r' pl] [p|]]|] eqn:Et; try apply run_refl.
  - pose proof (run_packet (fun _ => True) w r' pl p I Ea Et) as H2.
    destruct (handle_packet (set_reader (w_sess w) r') p) as [s2 hr]. cbn [fst] in H2.
    destruct hr as [[|]|e]; try exact H2.
    destruct e; try exact H2; (eapply run_trans; [exact H2 | apply run_hd]).
  - eapply run_trans; [exact (run_bad_packet _ w r' pl Ea Et) | apply run_hd].
Qed.

Lemma drive_loop_run : forall fuel adv w, run (fun _ => True) w (fst (drive_loop fuel adv w)).
Proof.
  induction fuel as [|f IH]; intros adv w; cbn [drive_loop]; [apply run_refl|].
  pose proof (process_received_run w) as H1. destruct (process_received w) as [w1 r1]. cbn [fst] in H1.
  destruct r1 as [[p|]| | | |]; try exact H1.
  destruct (packet_available _); [eapply run_trans; [exact H1 | apply IH]|].
  pose proof (service_run (fun _ => True) (w_now w1) w1) as H2. destruct (service (w_now w1) w1) as [w2 r2]. cbn [fst] in H2.
  destruct r2 as [a| | | |]; try (eapply run_trans; eassumption).
  destruct (next_step _); [|eapply run_trans; eassumption].
  eapply run_trans; [exact H1|]. eapply run_trans; [exact H2 | apply IH].
Qed.

Lemma drive_packet_run : forall fuel w, run (fun _ => True) w (fst (drive_packet fuel w)).
Proof. intros. unfold drive_packet. destruct (negb _); [apply run_refl | apply drive_loop_run]. Qed.

Lemma wait_for_progress_run : forall fuel w, run (fun _ => True) w (fst (wait_for_progress fuel w)).
Proof.
  induction fuel as [|f IH]; intros w; cbn [wait_for_progress]; [apply run_refl|].
  pose proof (drive_packet_run (S f) w) as H1. destruct (drive_packet (S f) w) as [w1 r]. cbn [fst] in H1.
  destruct r as [pr| | | |]; try exact H1. destruct pr; try exact H1.
  destruct (negb (w_live w1)); [exact H1|].
  pose proof (fill_run (fun _ => True) (S f) (next_deadline (s_rt (w_sess w1))) w1) as H2.
  destruct (fill_packet_reader (S f) _ w1) as [w2 fr]. cbn [fst] in H2.
  assert (H3 : run (fun _ => True) w w2) by (eapply run_trans; eassumption).
  destruct fr; try exact H3; try (eapply run_trans; [exact H3 | apply IH]).
  eapply run_trans; [exact H3 | apply run_hd].
Qed.

Lemma op_poll_run : forall fuel w, run (fun _ => True) w (fst (op_poll fuel w)).
Proof.
  intros. unfold op_poll. pose proof (wait_for_progress_run fuel w) as H.
  destruct (wait_for_progress fuel w) as [w1 r]. cbn [fst] in H.
  destruct r as [pr| | | |]; try exact H. destruct pr; exact H.
Qed.

Lemma op_recv_run : forall fuel w, run (fun _ => True) w (fst (op_recv fuel w)).
Proof.
  induction fuel as [|f IH]; intros w; cbn [op_recv]; [apply run_refl|].
  pose proof (wait_for_progress_run (S f) w) as H.
  destruct (wait_for_progress (S f) w) as [w1 r]. cbn [fst] in H.
  destruct r as [pr| | | |]; try exact H. destruct pr; try exact H.
  eapply run_trans; [exact H | apply IH].
Qed.

Lemma op_drive_run : forall fuel w, run (fun _ => True) w (fst (op_drive fuel w)).
Proof.
  intros. unfold op_drive. pose proof (drive_packet_run fuel w) as H.
  destruct (drive_packet fuel w) as [w1 r]. cbn [fst] in H.
  destruct r as [pr| | | |]; try exact H. destruct pr; exact H.
Qed.
