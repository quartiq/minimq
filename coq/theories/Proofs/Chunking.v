(* Chunking.v — C15: the packet reader's output does not depend on how the transport fragments the inbound stream,
   and a packet written in several pieces from its recorded offset is the packet. *)
From Coq Require Import List NArith Lia.

From Minimq Require Import Bytes Varint De Reader Util.
Import ListNotations.
Local Open Scope N_scope.

(* the reader driven by a transport that hands over `cnt` bytes per read, 1 <= cnt <= window, big-step:
   RRun r input packets (final reader, unread input).  The choice of cnt at every read is free: that is the
   transport's fragmentation. *)
Inductive RRun : reader -> bytes -> list (N * option rpacket) -> reader * bytes -> Prop :=
| RR_packet r input r' pl p ps fin :
    packet_available r = true -> take_packet r = Some (r', pl, p) -> RRun r' input ps fin ->
    RRun r input ((pl, p) :: ps) fin
| RR_error r input r' :
    packet_available r = false -> receive_buffer r = (r', None) -> RRun r input [] (r', input)
| RR_starved r input r' w :
    packet_available r = false -> receive_buffer r = (r', Some w) -> 0 < w -> input = [] ->
    RRun r input [] (r', input)
| RR_zero r input r' ps fin :
    (* the probe has just learnt the length and nothing is missing: an empty window, then the packet is taken *)
    packet_available r = false -> receive_buffer r = (r', Some 0) -> packet_available r' = true ->
    RRun r' input ps fin -> RRun r input ps fin
| RR_stuck r input r' :
    packet_available r = false -> receive_buffer r = (r', Some 0) -> packet_available r' = false ->
    RRun r input [] (r', input)
| RR_chunk r input r' w cnt ps fin :
    packet_available r = false -> receive_buffer r = (r', Some w) -> 0 < w -> input <> [] ->
    1 <= cnt -> cnt <= w -> cnt <= lenN input ->
    RRun (commit r' (takeN cnt input)) (dropN cnt input) ps fin ->
    RRun r input ps fin.

(* the executable loop (the function behind the reader hook, returning values instead of text) *)
Fixpoint rloop (fuel : nat) (r : reader) (input : bytes) (frags : list N)
  : list (N * option rpacket) * option (reader * bytes) :=
  match fuel with
  | O => ([], None)
  | S f =>
      if packet_available r then
        match take_packet r with
        | Some (r', pl, p) => let '(ps, fin) := rloop f r' input frags in ((pl, p) :: ps, fin)
        | None => ([], Some (r, input))
        end
      else
        match receive_buffer r with
        | (r', None) => ([], Some (r', input))
        | (r', Some w) =>
            if N.eqb w 0 then
              if packet_available r' then rloop f r' input frags else ([], Some (r', input))
            else if N.eqb (lenN input) 0 then ([], Some (r', input))
            else
              let req := match frags with x :: _ => x | [] => 1 end in
              let cnt := N.min (N.min (N.max req 1) w) (lenN input) in
              rloop f (commit r' (takeN cnt input)) (dropN cnt input) (tl frags)
        end
  end.

Lemma available_has_len : forall r, packet_available r = true -> exists pl, rplen r = Some pl.
Proof. intros r H. unfold packet_available in H. destruct (rplen r) as [pl|]; [now exists pl|discriminate]. Qed.

Lemma take_packet_reset : forall r r' pl p, take_packet r = Some (r', pl, p) -> r' = reader_reset r.
Proof. intros r r' pl p H. unfold take_packet in H. destruct (rplen r); inversion H; reflexivity. Qed.

(* the packet length once receive_buffer has looked: the recorded one, or what the probe finds in two or more bytes *)
Definition probed (r : reader) : option N :=
  match rplen r with
  | Some pl => Some pl
  | None => if read_bytes r <=? 1 then None else probe_len (takeN 4 (dropN 1 (rdata r)))
  end.
Definition with_plen (r : reader) (k : option N) : reader := {| rcap := rcap r; rdata := rdata r; rplen := k |}.

Lemma with_plen_id : forall r, with_plen r (rplen r) = r.
Proof. now intros []. Qed.

(* the window None is the malformed-packet error *)
Lemma receive_buffer_eq : forall r,
  receive_buffer r =
  (with_plen r (probed r),
   match probed r with
   | Some pl => if pl <=? rcap r then Some (pl - read_bytes r) else None
   | None => if (5 <=? read_bytes r) || negb (read_bytes r + 1 <=? rcap r) then None else Some 1
   end).
Proof.
  intros [c d [pl|]]; unfold receive_buffer, probed, probe, with_plen, read_bytes; cbn [rplen rcap rdata].
  - now destruct (pl <=? c).
  - assert (W : lenN d + 1 - lenN d = 1) by lia.
    destruct (N.leb_spec (lenN d) 1); cbn [rplen rcap rdata].
    + destruct (N.leb_spec 5 (lenN d)); [lia|]. rewrite W. now destruct (lenN d + 1 <=? c).
    + destruct (probe_len _) as [p|]; [rewrite andb_false_r|rewrite andb_true_r]; cbn [rplen rcap rdata].
      * now destruct (p <=? c).
      * destruct (5 <=? lenN d); [reflexivity|]. cbn [rplen rcap rdata]. rewrite W. now destruct (lenN d + 1 <=? c).
Qed.

Lemma rloop_sound : forall fuel r input frags ps fin,
  rloop fuel r input frags = (ps, Some fin) -> RRun r input ps fin.
Proof.
  induction fuel as [|f IH]; intros r input frags ps fin H; cbn [rloop] in H; [inversion H|].
  destruct (packet_available r) eqn:Ea.
  - destruct (available_has_len r Ea) as [pl Epl]. unfold take_packet in H. rewrite Epl in H.
    destruct (rloop f (reader_reset r) input frags) as [ps0 fin0] eqn:E0. inversion H; subst.
    eapply RR_packet; [exact Ea|unfold take_packet; now rewrite Epl|]. eapply IH. exact E0.
  - destruct (receive_buffer r) as [r' ow] eqn:Er. destruct ow as [w|].
    + destruct (N.eqb_spec w 0) as [->|Hw].
      * destruct (packet_available r') eqn:Ea'.
        -- eapply RR_zero; [exact Ea|exact Er|exact Ea'|]. eapply IH. exact H.
        -- inversion H; subst. eapply RR_stuck; eassumption.
      * destruct (N.eqb_spec (lenN input) 0) as [Hz|Hz].
        -- inversion H; subst. eapply RR_starved; [exact Ea|exact Er|lia|now apply lenN_zero_nil].
        -- eapply RR_chunk; [exact Ea|exact Er|lia| |..|eapply IH; exact H]; try lia.
           intros ->. now rewrite lenN_nil in Hz.
    + inversion H; subst. eapply RR_error; eassumption.
Qed.

Lemma window_gt1_known : forall r r' w, receive_buffer r = (r', Some w) -> 1 < w ->
  exists pl, rplen r' = Some pl /\ w = pl - read_bytes r' /\ pl <= rcap r'.
Proof.
  intros r r' w H Hw. rewrite receive_buffer_eq in H. injection H as <- H.
  destruct (probed r) as [pl|]; [|destruct (_ || _); [discriminate|injection H as <-; lia]].
  destruct (N.leb_spec pl (rcap r)); [|discriminate]. injection H as <-. now exists pl.
Qed.

Lemma receive_buffer_known : forall r pl, rplen r = Some pl ->
  receive_buffer r = if pl <=? rcap r then (r, Some (pl - read_bytes r)) else (r, None).
Proof.
  intros r pl H. rewrite receive_buffer_eq. unfold probed. rewrite H, <- H, with_plen_id. now destruct (_ <=? _).
Qed.

(* confluence: a larger read equals two smaller ones *)
Lemma chunk_merge : forall r' input pl c1 c2 ps fin,
  rplen r' = Some pl -> pl <= rcap r' -> read_bytes r' + c2 <= pl -> 1 <= c1 -> c1 < c2 -> c2 <= lenN input ->
  RRun (commit r' (takeN c2 input)) (dropN c2 input) ps fin ->
  RRun (commit r' (takeN c1 input)) (dropN c1 input) ps fin.
Proof.
  intros r' input pl c1 c2 ps fin Hp Hc Hb H1 H12 Hl H.
  set (r1 := commit r' (takeN c1 input)).
  assert (Hr1 : rplen r1 = Some pl) by exact Hp.
  assert (Hrb : read_bytes r1 = read_bytes r' + c1).
  { unfold r1, read_bytes, commit. cbn [rdata]. rewrite lenN_app, lenN_takeN. lia. }
  eapply (RR_chunk r1 (dropN c1 input) r1 (pl - read_bytes r1) (c2 - c1)).
  - unfold packet_available. rewrite Hr1. destruct (N.leb_spec pl (read_bytes r1)); [lia|reflexivity].
  - rewrite (receive_buffer_known r1 pl Hr1). change (rcap r1) with (rcap r'). destruct (N.leb_spec pl (rcap r')); [reflexivity|lia].
  - lia.
  - intros E. apply (f_equal lenN) in E. rewrite lenN_dropN, lenN_nil in E. lia.
  - lia.
  - lia.
  - rewrite lenN_dropN. lia.
  - replace (commit r1 (takeN (c2 - c1) (dropN c1 input))) with (commit r' (takeN c2 input)).
    + rewrite dropN_dropN. replace (c2 - c1 + c1) with c2 by lia. exact H.
    + unfold r1, commit. cbn [rcap rdata rplen]. f_equal. rewrite <- app_assoc. f_equal.
      rewrite takeN_takeN_dropN. f_equal. lia.
Qed.

Definition det_at (r : reader) (input : bytes) : Prop :=
  forall ps1 fin1 ps2 fin2, RRun r input ps1 fin1 -> RRun r input ps2 fin2 -> ps1 = ps2 /\ fin1 = fin2.

(* a run, read backwards: which rule applied is decided by the reader (and by whether input is left), so two runs
   from the same state can differ only in the size of a chunk *)
Lemma RRun_inv : forall r input ps fin, RRun r input ps fin ->
  if packet_available r then
    exists r' pl p ps', take_packet r = Some (r', pl, p) /\ ps = (pl, p) :: ps' /\ RRun r' input ps' fin
  else
    let (r', ow) := receive_buffer r in
    match ow with
    | None => ps = [] /\ fin = (r', input)
    | Some w =>
        if w =? 0 then if packet_available r' then RRun r' input ps fin else ps = [] /\ fin = (r', input)
        else (input = [] /\ ps = [] /\ fin = (r', input)) \/
             (exists cnt, 1 <= cnt /\ cnt <= w /\ cnt <= lenN input /\
                RRun (commit r' (takeN cnt input)) (dropN cnt input) ps fin)
    end.
Proof.
  intros r input ps fin H.
  destruct H as [r input r' pl p ps fin Ea Et H | r input r' Ea Er | r input r' w Ea Er Hw Hi
                | r input r' ps fin Ea Er Ea' H | r input r' Ea Er Ea' | r input r' w cnt ps fin Ea Er Hw Hi H1 H2 H3 H];
    rewrite Ea; [now exists r', pl, p, ps|rewrite Er..].
  - now split.
  - destruct (N.eqb_spec w 0); [lia|]. now left.
  - cbn. now rewrite Ea'.
  - cbn. now rewrite Ea'.
  - destruct (N.eqb_spec w 0); [lia|]. right. now exists cnt.
Qed.

Lemma fresh_window : forall r r' w, rdata r = [] -> rplen r = None -> receive_buffer r = (r', Some w) -> w = 1 /\ r' = r.
Proof.
  intros r r' w Hd Hp H. rewrite receive_buffer_eq in H. unfold probed, read_bytes in H. rewrite Hp, Hd in H.
  change (lenN [] <=? 1) with true in H. cbv iota in H.
  assert (E : with_plen r None = r) by (rewrite <- Hp; apply with_plen_id). rewrite E in H. injection H as <- H.
  destruct (negb _); [discriminate|]. now injection H as <-.
Qed.

Section Step.
Variable input : bytes.
Hypothesis IH : forall c, 1 <= c -> c <= lenN input -> forall r, det_at r (dropN c input).

(* a nonempty window: two runs differ at most in the size of the first chunk, and the larger read is the smaller
   one followed by the rest *)
Lemma det_window : forall r r' w, packet_available r = false -> receive_buffer r = (r', Some w) -> w <> 0 -> det_at r input.
Proof.
  intros r r' w Ea Er Hw ps1 fin1 ps2 fin2 H1 H2. apply RRun_inv in H1, H2. rewrite Ea, Er in H1, H2.
  apply N.eqb_neq in Hw. rewrite Hw in H1, H2.
  destruct H1 as [[I1 [-> ->]]|[c1 [A1 [B1 [C1 R1]]]]], H2 as [[I2 [-> ->]]|[c2 [A2 [B2 [C2 R2]]]]].
  - now split.
  - rewrite I1, lenN_nil in C2. lia.
  - rewrite I2, lenN_nil in C1. lia.
  - destruct (N.lt_trichotomy c1 c2) as [L|[E|L]].
    + destruct (window_gt1_known r r' w Er ltac:(lia)) as [pl [Hp [Hw' Hcap]]].
      eapply (IH c1); [lia|lia|exact R1|]. eapply (chunk_merge r' input pl c1 c2); try eassumption; lia.
    + subst. eapply (IH c2); [lia|lia|exact R1|exact R2].
    + destruct (window_gt1_known r r' w Er ltac:(lia)) as [pl [Hp [Hw' Hcap]]].
      eapply (IH c2); [lia|lia| |exact R2]. eapply (chunk_merge r' input pl c2 c1); try eassumption; lia.
Qed.

Lemma det_unavailable : forall r, packet_available r = false ->
  (forall r', receive_buffer r = (r', Some 0) -> packet_available r' = true -> det_at r' input) -> det_at r input.
Proof.
  intros r Ea Hz. destruct (receive_buffer r) as [r' [w|]] eqn:Er.
  - destruct (N.eq_dec w 0) as [->|Hw]; [|exact (det_window r r' w Ea Er Hw)].
    intros ps1 fin1 ps2 fin2 H1 H2. apply RRun_inv in H1, H2. rewrite Ea, Er in H1, H2. cbn in H1, H2.
    destruct (packet_available r') eqn:Ea'; [exact (Hz r' eq_refl Ea' _ _ _ _ H1 H2)|].
    destruct H1 as [-> ->], H2 as [-> ->]. now split.
  - intros ps1 fin1 ps2 fin2 H1 H2. apply RRun_inv in H1, H2. rewrite Ea, Er in H1, H2.
    destruct H1 as [-> ->], H2 as [-> ->]. now split.
Qed.

(* a complete packet is taken; the reader is then fresh and asks for one byte: no empty window *)
Lemma det_available : forall r, packet_available r = true -> det_at r input.
Proof.
  intros r Ea ps1 fin1 ps2 fin2 H1 H2. apply RRun_inv in H1, H2. rewrite Ea in H1, H2.
  destruct H1 as [r1 [pl1 [p1 [ps1' [T1 [-> R1]]]]]], H2 as [r2 [pl2 [p2 [ps2' [T2 [-> R2]]]]]].
  rewrite T1 in T2. injection T2 as <- <- <-.
  assert (Hd : rdata r1 = []) by now rewrite (take_packet_reset _ _ _ _ T1).
  assert (Hp : rplen r1 = None) by now rewrite (take_packet_reset _ _ _ _ T1).
  assert (D : det_at r1 input).
  { apply det_unavailable; [unfold packet_available; now rewrite Hp|].
    intros r' Er. now destruct (fresh_window _ _ _ Hd Hp Er). }
  destruct (D _ _ _ _ R1 R2) as [-> ->]. now split.
Qed.

Lemma det_any : forall r, det_at r input.
Proof.
  intros r. destruct (packet_available r) eqn:E; [now apply det_available|].
  apply det_unavailable; [exact E|]. intros r' _. apply det_available.
Qed.
End Step.

Theorem reader_deterministic : forall n input, lenN input <= n -> forall r, det_at r input.
Proof.
  induction n as [|n IH] using N.peano_ind; intros input Hn; apply det_any; intros c H1 H2.
  - lia.
  - apply IH. rewrite lenN_dropN. lia.
Qed.

(* C15 for the executable loop: any two fragmentations that both run to completion *)
Theorem reader_chunking_independent : forall f1 f2 r input frags1 frags2 ps1 fin1 ps2 fin2,
  rloop f1 r input frags1 = (ps1, Some fin1) -> rloop f2 r input frags2 = (ps2, Some fin2) ->
  ps1 = ps2 /\ fin1 = fin2.
Proof.
  intros f1 f2 r input frags1 frags2 ps1 fin1 ps2 fin2 H1 H2.
  eapply (reader_deterministic (lenN input) input (N.le_refl _) r); eapply rloop_sound; eassumption.
Qed.

(* non-vacuity: a PUBACK and a PINGRESP, read whole and read byte by byte *)
Example reader_runs_complete :
  rloop 40 (reader_new 16) [64; 2; 0; 7; 208; 0] [1000; 1000; 1000; 1000; 1000; 1000] =
  rloop 40 (reader_new 16) [64; 2; 0; 7; 208; 0] [] /\
  match rloop 40 (reader_new 16) [64; 2; 0; 7; 208; 0] [] with
  | (ps, Some _) => length ps = 2%nat
  | _ => False
  end.
Proof. vm_compute. split; reflexivity. Qed.

(* writes: the engine writes takeN n (dropN written bs) and records written + n (perform_outbound_step / write_all);
   the pieces taken from the recorded offset concatenate to the packet *)
Fixpoint pieces (bs : bytes) (written : N) (ns : list N) : bytes :=
  match ns with
  | [] => []
  | n :: t => takeN n (dropN written bs) ++ pieces bs (written + n) t
  end.

Theorem pieces_concat : forall ns bs written, pieces bs written ns = takeN (sumN ns) (dropN written bs).
Proof.
  induction ns as [|n t IH]; intros bs written; cbn [pieces sumN].
  - now rewrite takeN_0.
  - rewrite IH, (N.add_comm written n), <- dropN_dropN. apply takeN_takeN_dropN.
Qed.

Corollary pieces_whole : forall ns bs, sumN ns = lenN bs -> pieces bs 0 ns = bs.
Proof.
  intros ns bs H. rewrite pieces_concat, dropN_0, H. apply takeN_all. lia.
Qed.
