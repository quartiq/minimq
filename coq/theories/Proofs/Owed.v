(* Owed.v — what the outbound queues still owe the wire, and its conservation (C15 outbound, C02/C03 wire level, C16).

   `owed o` is a function of the outbound state alone: the unwritten remainder of the entry that is half written (if
   any), then every unsent entry — control packets, PUBRELs, retained packets, in that order, each queue in its own
   order.  One engine step on ANY transport (whatever part of the packet it accepts) moves bytes from the front of
   `owed` to the end of the wire and changes nothing else:   wire' ++ owed' = wire ++ owed.
   Hence the bytes that reach the transport are determined by the queues, not by how the transport fragments the writes
   (`flush_outbound_wire`: when the engine stops with nothing left, exactly `owed` was added to the wire). *)
From Coq Require Import List NArith Lia.
From Minimq Require Import Bytes Arena Core Machine Util Lts Refine ArenaOps Engine Step WireInv Wire Terminate PingQuiet Healthy Io.
Import ListNotations.
Local Open Scope N_scope.

Definition rest_part (st : sstate) (bs : bytes) : bytes :=
  match st with SWrite k => if N.eqb k 0 then [] else dropN k bs | _ => [] end.
Definition rest_fresh (st : sstate) (bs : bytes) : bytes := if is_fresh st then bs else [].

Section Gen.
  Context {A : Type} (st : A -> sstate) (bs : A -> bytes).
  Definition Pq (l : list A) : bytes := concat (map (fun x => rest_part (st x) (bs x)) l).
  Definition Fq (l : list A) : bytes := concat (map (fun x => rest_fresh (st x) (bs x)) l).
End Gen.

Definition ret_bytes (buf : bytes) (e : rentry) : bytes := sliceN (re_off e) (re_len e) buf.
Definition cbytes (e : centry) : bytes := ctl_bytes (ce_act e).
Definition lbytes (e : lentry) : bytes := rel_bytes (le_pid e) (le_rc e).

Definition part_of (o : outbound) : bytes :=
  Pq ce_st cbytes (ob_ctl o) ++ Pq le_st lbytes (ob_rel o) ++ Pq re_st (ret_bytes (ob_buf o)) (ob_ret o).
Definition fresh_of (o : outbound) : bytes :=
  Fq ce_st cbytes (ob_ctl o) ++ Fq le_st lbytes (ob_rel o) ++ Fq re_st (ret_bytes (ob_buf o)) (ob_ret o).
Definition owed (o : outbound) : bytes := part_of o ++ fresh_of o.

Lemma owed_items : forall o, owed o = Gi rest_part (items o) ++ Gi rest_fresh (items o).
Proof. intros o. unfold owed, part_of, fresh_of, Pq, Fq, items, Gi. rewrite !map_app, !concat_app, !map_map. reflexivity. Qed.

(* the retained part of `items` through the abstract view of the arena: compaction does not change it *)
Lemma items_abs : forall o, items o = map ctl_item (ob_ctl o) ++ map rel_item (ob_rel o) ++ map (fun a : aentry => (snd a, snd (fst a))) (abs o).
Proof. intros o. unfold items, abs. now rewrite map_map. Qed.

Lemma items_compact : forall o, arena_wf o -> items (compact o) = items o.
Proof. intros o W. destruct (compact_spec _ W) as [_ [Ha [_ [_ [Ec [El _]]]]]]. now rewrite !items_abs, Ha, Ec, El. Qed.

Lemma rest_part_nip : forall s b, is_in_progress s = false -> rest_part s b = [].
Proof. intros [k| |] b H; cbn [rest_part is_in_progress] in *; try reflexivity. destruct (N.eqb k 0); [reflexivity|discriminate]. Qed.
Lemma rest_fresh_nf : forall st bs, is_fresh st = false -> rest_fresh st bs = [].
Proof. intros st bs H. unfold rest_fresh. now rewrite H. Qed.
Lemma rest_both : forall w bs, rest_part (SWrite w) bs ++ rest_fresh (SWrite w) bs = dropN w bs.
Proof.
  intros w bs. unfold rest_part, rest_fresh, is_fresh. destruct (N.eqb_spec w 0) as [->|_]; [now rewrite dropN_0|apply app_nil_r].
Qed.
Lemma rest_part_flush : forall bs, rest_part SFlush bs = [].
Proof. reflexivity. Qed.
Lemma in_progress_write : forall w, is_in_progress (SWrite w) = negb (N.eqb w 0).
Proof. reflexivity. Qed.
Lemma ret_bytes_with : forall o l e, ret_bytes (ob_buf (with_ret o l)) e = ret_bytes (ob_buf o) e.
Proof. reflexivity. Qed.

Lemma Gi_part_quiet : forall l, Forall quiet l -> Gi rest_part l = [].
Proof. intros l H. apply Gi_nil. eapply Forall_impl; [|exact H]. intros [st bs] Hq. now apply rest_part_nip. Qed.
Lemma Gi_fresh_stale : forall l, Forall stale l -> Gi rest_fresh l = [].
Proof. intros l H. apply Gi_nil. eapply Forall_impl; [|exact H]. intros [st bs] Hq. now apply rest_fresh_nf. Qed.

Lemma rest_after : forall w n len bs, lenN bs = len -> n <> 0 -> n <= len - w -> w <= len ->
  takeN n (dropN w bs) ++ rest_part (set_written_state (w + n) len) bs = dropN w bs.
Proof.
  intros w n len bs Hl Hn Hle Hw. unfold set_written_state. destruct (N.leb_spec len (w + n)) as [L|L]; cbn [rest_part].
  - rewrite app_nil_r. apply takeN_all. rewrite lenN_dropN. lia.
  - destruct (N.eqb_spec (w + n) 0) as [E|_]; [lia|].
    transitivity (takeN n (dropN w bs) ++ dropN n (dropN w bs)); [|apply takeN_dropN].
    f_equal. rewrite Util.dropN_dropN. f_equal. lia.
Qed.

Lemma sws_not_fresh : forall w n len, n <> 0 -> is_fresh (set_written_state (w + n) len) = false.
Proof.
  intros. unfold set_written_state. destruct (_ <=? _); cbn [is_fresh]; [reflexivity|]. apply N.eqb_neq. lia.
Qed.

Lemma owed_no_step : forall o, next_step o = None -> owed o = [].
Proof.
  intros o H. apply next_step_none in H. rewrite owed_items, Gi_part_quiet, Gi_fresh_stale; [reflexivity| |];
    (eapply Forall_impl; [|exact H]); intros i [Q S]; assumption.
Qed.

Theorem engine_owed : forall s st p bs w len n now,
  WInv s -> next_step (s_ob s) = Some st -> prepare_step s st = PWrite p bs w len -> n <> 0 -> n <= len - w ->
  let s2 := fst (set_written s p (w + n) len) in
  owed (s_ob s) = takeN n (dropN w bs) ++ owed (s_ob s2) /\
  (len <= w + n -> owed (s_ob (fst (complete_flush s2 p now))) = owed (s_ob s2)).
Proof.
  intros s st p bs w len n now I Hn Hp Hn0 Hnle.
  destruct (engine_tail s st p bs w len n I Hn Hp) as [_ [Hlen _]].
  destruct (write_focus s st p bs w len (WInv_served s I) Hn Hp) as [pre [post [E0 [E1 [E2 [Qpre [Qpost Hst]]]]]]].
  assert (Hrest : takeN n (dropN w bs) ++ rest_part (set_written_state (w + n) len) bs = dropN w bs) by (apply rest_after; [assumption..|lia]).
  cbv zeta. rewrite !owed_items, E0, E1, !Gi_focus, !(Gi_part_quiet _ Qpre), !(Gi_part_quiet _ Qpost).
  rewrite (rest_fresh_nf (set_written_state (w + n) len)) by (now apply sws_not_fresh). cbn [app]. rewrite !app_nil_r. split.
  - (* a fresh entry has nothing fresh before it; an entry in progress is not fresh itself *)
    pose proof (rest_both w bs) as Hrb. destruct (N.eqb_spec w 0) as [E|E].
    + rewrite (Gi_fresh_stale _ (Hst E)). cbn [app]. rewrite app_assoc, Hrb, (app_assoc (takeN n (dropN w bs))), Hrest. reflexivity.
    + rewrite (rest_fresh_nf (SWrite w)) in * by (cbn [is_fresh]; now apply N.eqb_neq). rewrite app_nil_r in Hrb. cbn [app].
      rewrite Hrb, (app_assoc (takeN n (dropN w bs))), Hrest. reflexivity.
  - intros L. assert (Ef : set_written_state (w + n) len = SFlush) by (unfold set_written_state; destruct (N.leb_spec len (w + n)); [reflexivity|lia]).
    destruct (E2 (w + n) now) as [mid [Hm Em]]. rewrite Em, Ef, !Gi_app, !(Gi_part_quiet _ Qpre), !(Gi_part_quiet _ Qpost).
    destruct Hm as [->| ->]; reflexivity.
Qed.

Theorem engine_flush_owed : forall s st p now,
  WInv s -> next_step (s_ob s) = Some st -> prepare_step s st = PFlush p ->
  owed (s_ob (fst (complete_flush s p now))) = owed (s_ob s).
Proof.
  intros s st p now I Hn Hp.
  destruct (flush_focus s st p (WInv_served s I) Hn Hp) as [pre [post [bs [mid [E0 [Hm [E1 _]]]]]]].
  rewrite !owed_items, E0, E1, !Gi_app, !Gi_cons. destruct Hm as [->| ->]; reflexivity.
Qed.

Definition total (w : world) : bytes := w_wire w ++ owed (s_ob (w_sess w)).

Theorem step_moves : forall st now w w' r,
  WInv (w_sess w) -> next_step (s_ob (w_sess w)) = Some st ->
  perform_outbound_step st now w = (w', r) -> not_failed r ->
  exists P, w_wire w' = w_wire w ++ P /\ owed (s_ob (w_sess w)) = P ++ owed (s_ob (w_sess w')).
Proof.
  intros st now w w' r I Hn H Hr.
  destruct (perform_not_failed _ _ _ _ _ H Hr) as [[Hw Hs]|[[p [bs [wr [len [n [Ep [En [Hle [Hw Hs]]]]]]]]]|[p [Ep [Hw Hs]]]]].
  - exists []. rewrite Hw, Hs, app_nil_r. auto.
  - destruct (engine_tail _ _ _ _ _ _ n I Hn Ep) as [_ [Hlen _]]. rewrite Hlen in Hle.
    destruct (engine_owed _ _ _ _ _ _ n now I Hn Ep En Hle) as [E1 E2]. cbv zeta in E1, E2.
    exists (takeN n (dropN wr bs)). split; [exact Hw|]. destruct Hs as [->|[L ->]]; [exact E1|]. now rewrite (E2 L).
  - exists []. rewrite Hw, Hs, app_nil_r. split; [reflexivity|]. symmetry. eapply engine_flush_owed; eassumption.
Qed.

Theorem step_conserves : forall st now w w' r,
  WInv (w_sess w) -> next_step (s_ob (w_sess w)) = Some st ->
  perform_outbound_step st now w = (w', r) -> not_failed r -> total w' = total w.
Proof.
  intros st now w w' r I Hn H Hr. destruct (step_moves _ _ _ _ _ I Hn H Hr) as [P [Hw Ho]].
  unfold total. now rewrite Hw, Ho, <- app_assoc.
Qed.

Lemma step_budget : forall st now w w' r, perform_outbound_step st now w = (w', r) -> not_failed r ->
  pbudget (w_sess w') <= pbudget (w_sess w).
Proof.
  intros st now w w' r H Hr.
  destruct (perform_not_failed _ _ _ _ _ H Hr) as [[_ Hs]|[[p [bs [wr [len [n [_ [_ [_ [_ Hs]]]]]]]]]|[p [_ [_ Hs]]]]].
  - rewrite Hs. apply N.le_refl.
  - pose proof (pb_set_written (w_sess w) p (wr + n) len) as P1. destruct Hs as [->|[_ ->]]; [exact P1|].
    eapply N.le_trans; [apply pb_complete_flush|exact P1].
  - rewrite Hs. apply pb_complete_flush.
Qed.

(* a newly queued control packet (a PINGREQ that falls due) is owed behind the entry in progress and the unsent control
   packets, before the unsent PUBRELs and retained packets *)
Lemma owed_queued_at : forall o a o', queue_control o a = Some o' ->
  let A := part_of o ++ Fq ce_st cbytes (ob_ctl o) in
  let B := Fq le_st lbytes (ob_rel o) ++ Fq re_st (ret_bytes (ob_buf o)) (ob_ret o) in
  owed o = A ++ B /\ owed o' = A ++ ctl_bytes a ++ B.
Proof.
  intros o a o' H. unfold queue_control in H. destruct (_ <=? _); [discriminate|]. injection H as <-.
  unfold owed, part_of, fresh_of, Pq, Fq. cbn [ob_ctl ob_rel ob_ret ob_buf]. rewrite !map_app, !concat_app.
  cbn [map concat ce_st ce_act rest_part rest_fresh is_fresh N.eqb cbytes app]. rewrite !app_nil_r, <- !app_assoc. split; reflexivity.
Qed.

Lemma owed_queued : forall o a o', queue_control o a = Some o' ->
  exists A B, owed o = A ++ B /\ owed o' = A ++ ctl_bytes a ++ B.
Proof. intros o a o' H. eexists _, _. exact (owed_queued_at o a o' H). Qed.

(* `flush_outbound` from `w` to `w'` with outcome `r`, on any script whatever (partial writes, writes that take time, dropped
   futures): `wire ++ owed` is conserved but for at most one PINGREQ that fell due on the way and joined the queue; none
   joins while one is queued or awaited (pbudget = 0), and none while no PINGREQ is to be queued on a transport whose writes
   take no time (PQ). *)
Definition DrainSpec (w w' : world) (r : outcome unit) : Prop :=
  (exists Y, (Y = owed (s_ob (w_sess w)) \/ exists A B, owed (s_ob (w_sess w)) = A ++ B /\ Y = A ++ ctl_bytes CPing ++ B) /\
             total w' = w_wire w ++ Y /\ (Y = owed (s_ob (w_sess w)) \/ pbudget (w_sess w') = 0)) /\
  WInv (w_sess w') /\ (r = ODone tt -> next_step (s_ob (w_sess w')) = None) /\
  (pbudget (w_sess w) = 0 -> total w' = total w /\ pbudget (w_sess w') = 0) /\
  (PQ w -> total w' = total w /\ PQ w' /\ w_now w' = w_now w).

Lemma DrainSpec_refl : forall w r, WInv (w_sess w) -> (r = ODone tt -> next_step (s_ob (w_sess w)) = None) -> DrainSpec w w r.
Proof.
  intros w r I Hn. split; [exists (owed (s_ob (w_sess w))); auto|]. split; [exact I|]. split; [exact Hn|]. split; auto.
Qed.

Lemma budget_no_ping : forall s now, pbudget s = 0 -> should_queue_pingreq s now = false.
Proof.
  intros s now H. unfold pbudget in H. unfold should_queue_pingreq. destruct (rt_ping_timeout (s_rt s)); [reflexivity|].
  destruct (has_pending_pingreq (s_ob s)); [now rewrite andb_false_r|discriminate].
Qed.

Lemma DrainSpec_step : forall st w1 w2 r2 w' r,
  WInv (w_sess w1) -> next_step (s_ob (w_sess w1)) = Some st ->
  perform_outbound_step st (w_now w1) w1 = (w2, r2) -> not_failed r2 -> DrainSpec w2 w' r -> DrainSpec w1 w' r.
Proof.
  intros st w1 w2 r2 w' r I1 En E2 Hr2 [[Y [Hi [HT HY]]] [I' [Hn' [Hnmp Hpq]]]].
  destruct (step_moves _ _ _ _ _ I1 En E2 Hr2) as [P [Hw Ho]].
  assert (T2 : total w2 = total w1) by (unfold total; now rewrite Hw, Ho, <- app_assoc).
  split.
  { exists (P ++ Y). split; [|split; [rewrite HT, Hw, <- app_assoc; reflexivity|destruct HY as [->|HY]; [left; symmetry; exact Ho|right; exact HY]]].
    destruct Hi as [->|[A [B [E1 ->]]]]; [left; symmetry; exact Ho|right]. exists (P ++ A), B. rewrite Ho, E1, <- !app_assoc. auto. }
  split; [exact I'|]. split; [exact Hn'|]. split.
  - intros N1. pose proof (step_budget _ _ _ _ _ E2 Hr2) as Hb. destruct Hnmp as [A B]; [lia|]. split; [congruence|exact B].
  - intros Q1. destruct (step_pq _ _ _ _ Q1 E2 Hr2) as [Q2 N2]. destruct (Hpq Q2) as [A [B C]]. split; [congruence|split; [exact B|congruence]].
Qed.

(* once a PINGREQ has joined the queue none other does (pbudget = 0) *)
Lemma DrainSpec_ping : forall w o w' r,
  should_queue_pingreq (w_sess w) (w_now w) = true -> queue_control (s_ob (w_sess w)) CPing = Some o ->
  DrainSpec (upd_sess w (set_ob (w_sess w) o)) w' r -> DrainSpec w w' r.
Proof.
  intros w o w' r Esq Eo [_ [I' [Hn' [Hnmp _]]]]. destruct (owed_queued _ _ _ Eo) as [A [B [E1 E2]]].
  assert (N1 : pbudget (set_ob (w_sess w) o) = 0).
  { unfold pbudget. cbn [s_rt s_ob set_ob]. destruct (rt_ping_timeout (s_rt (w_sess w))); [reflexivity|].
    unfold queue_control in Eo. destruct (_ <=? _); [discriminate|]. inversion Eo; subst o.
    unfold has_pending_pingreq. cbn [ob_ctl]. now rewrite has_pending_snoc_ping. }
  destruct (Hnmp N1) as [HT N']. split.
  { exists (A ++ ctl_bytes CPing ++ B). split; [right; exists A, B; auto|]. split; [|right; exact N'].
    rewrite HT. unfold total. cbn [w_wire w_sess upd_sess s_ob set_ob]. now rewrite E2. }
  split; [exact I'|]. split; [exact Hn'|]. split; [intros N0; rewrite (budget_no_ping _ (w_now w) N0) in Esq; discriminate|intros [Q0 _]; congruence].
Qed.

Theorem drain_master : forall fuel w w' r,
  WInv (w_sess w) -> flush_outbound fuel w = (w', r) -> not_failed r -> DrainSpec w w' r.
Proof.
  induction fuel as [|f IH]; intros w w' r I H Hr; [injection H as <- <-; apply DrainSpec_refl; [exact I|discriminate]|].
  cbn [flush_outbound] in H. destruct (maybe_queue_pingreq (w_sess w) (w_now w)) as [s1 e] eqn:Eq. destruct e; [injection H as <- <-; elim Hr|].
  assert (I1 : WInv (w_sess (upd_sess w s1))).
  { cbn [w_sess upd_sess]. replace s1 with (fst (maybe_queue_pingreq (w_sess w) (w_now w))) by now rewrite Eq. eapply WInv_step; [apply SS_ping|exact I]. }
  assert (Body : DrainSpec (upd_sess w s1) w' r).
  { destruct (next_step (s_ob (w_sess (upd_sess w s1)))) as [st|] eqn:En; [|injection H as <- <-; apply DrainSpec_refl; [exact I1|intros _; exact En]].
    destruct (perform_outbound_step st (w_now w) (upd_sess w s1)) as [w2 r2] eqn:E2.
    assert (Hr2 : not_failed r2) by (destruct r2; inversion H; subst; try exact Logic.I; exact Hr).
    apply (DrainSpec_step st _ w2 r2); try assumption.
    pose proof (step_WInv _ _ _ _ _ I1 En E2) as I2.
    destruct r2 as [b|e| | |]; [exact (IH _ _ _ I2 H Hr)|elim Hr2| | |]; injection H as <- <-; apply DrainSpec_refl; try exact I2; discriminate. }
  unfold maybe_queue_pingreq in Eq. destruct (should_queue_pingreq (w_sess w) (w_now w)) eqn:Esq.
  - destruct (check_control_size _ _); [discriminate|]. destruct (queue_control (s_ob (w_sess w)) CPing) as [o|] eqn:Eo; [|discriminate].
    inversion Eq; subst s1. exact (DrainSpec_ping _ _ _ _ Esq Eo Body).
  - inversion Eq; subst s1. now rewrite upd_sess_id in Body.
Qed.

Lemma done_wire : forall w w', total w' = total w -> next_step (s_ob (w_sess w')) = None ->
  w_wire w' = w_wire w ++ owed (s_ob (w_sess w)).
Proof. intros w w' T N. unfold total in T. now rewrite (owed_no_step _ N), app_nil_r in T. Qed.

(* the drain that publish, subscribe and unsubscribe run before and after queueing: if it comes to its end, the bytes the
   transport accepted are exactly `owed`, however it cut the writes.  PQ: no PINGREQ falls due meanwhile. *)
Theorem flush_outbound_wire : forall fuel w w',
  WInv (w_sess w) -> PQ w -> flush_outbound fuel w = (w', ODone tt) ->
  w_wire w' = w_wire w ++ owed (s_ob (w_sess w)) /\ next_step (s_ob (w_sess w')) = None.
Proof.
  intros fuel w w' I Q H. destruct (drain_master _ _ _ _ I H Logic.I) as [_ [_ [Hn [_ Hpq]]]]. specialize (Hn eq_refl).
  split; [apply done_wire; [exact (proj1 (Hpq Q))|exact Hn]|exact Hn].
Qed.

Theorem drive_loop_wire : forall fuel adv w w' pr, Hd w -> NA w -> drive_loop fuel adv w = (w', ODone pr) ->
  w_wire w' = w_wire w ++ owed (s_ob (w_sess w)).
Proof.
  induction fuel as [|f IH]; intros adv w w' pr Hh Hna H; [discriminate|]. cbn [drive_loop] in H.
  assert (Ep : process_received w = (w, ODone None)).
  { unfold process_received. unfold NA in Hna. rewrite Hna. reflexivity. }
  rewrite Ep in H. unfold NA in Hna. rewrite Hna in H.
  destruct (Hd_service w Hh) as [Ht Hq]. unfold service in H. rewrite Ht, Hq in H. rewrite upd_sess_id in H.
  assert (I : WInv (w_sess w)) by (destruct Hh as [[_ [_ [I _]]] _]; exact I).
  destruct (next_step (s_ob (w_sess w))) as [st|] eqn:En.
  - destruct (healthy_perform st w Hh En) as [w2 [E2 [H2 [R2 N2]]]]. rewrite E2 in H.
    pose proof (step_conserves _ _ _ _ _ I En E2 Logic.I) as Hc. unfold total in Hc.
    assert (Na2 : NA w2) by (unfold NA; rewrite R2; exact Hna).
    destruct (next_step (s_ob (w_sess w2))) as [st2|] eqn:En2.
    + rewrite (IH _ _ _ _ H2 Na2 H). exact Hc.
    + injection H as <-. rewrite (owed_no_step _ En2), app_nil_r in Hc. exact Hc.
  - rewrite En in H. injection H as <-. rewrite (owed_no_step _ En), app_nil_r. reflexivity.
Qed.
