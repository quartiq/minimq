(* BrokerProofs.v — C09 for CONNECT, SUBSCRIBE, UNSUBSCRIBE, DISCONNECT: the broker-side decoder (Model/Broker.v) reads
   from the client's encoder output exactly the request, for every request the encoder accepts (all lengths symbolic);
   the acknowledgements are read back with the client's own decoder. *)
From Coq Require Import List NArith Lia.
From Minimq Require Import Bytes Varint Props Ser De Broker Reader Arena Core Util VarintProofs SerLemmas CodecProofs.
Import ListNotations.
Open Scope N_scope.

Definition props_ok (ps : list prop) : Prop := forallb prop_wf ps = true /\ forallb prop_canon ps = true.

Lemma all_some_map : forall {A} (l : list A), all_some (map Some l) = Some l.
Proof. induction l as [|x t IH]; cbn [map all_some]; [reflexivity|now rewrite IH]. Qed.

Lemma bk_field_prefixed : forall d x t, len_prefixed d = Some x -> bk_field (x ++ t) = Some (d, t).
Proof. intros d x t H. unfold bk_field. rewrite (read_field_prefixed false d x t H); [reflexivity|discriminate]. Qed.

Lemma bk_props_block : forall ps block szb t, encode_all ps = Some block -> varint_write (lenN block) = Some szb ->
  props_ok ps -> bk_props (szb ++ block ++ t) = Some (ps, t).
Proof.
  intros ps block szb t Hb Hs [Hw Hc]. unfold bk_props. rewrite (de_props_block _ _ _ Hs).
  rewrite (props_iter_roundtrip ps block Hb Hw Hc), all_some_map. reflexivity.
Qed.

Lemma bk_props_enc : forall ps x t, concat_chunks (c_properties (PSlice ps)) = Some x -> props_ok ps ->
  bk_props (x ++ t) = Some (ps, t).
Proof.
  intros ps x t H Hok. destruct (concat_c_properties _ _ H) as [szb [block [Eb [Es ->]]]].
  rewrite <- app_assoc. now apply bk_props_block.
Qed.

Lemma decode_frame : forall cap typ flags cs off bs, encode_chunks cap typ flags cs = SOk off bs ->
  exists body, concat_chunks cs = Some body /\
    broker_decode bs =
      (let hdr := typ * 16 + flags mod 16 in
       if N.eqb hdr 16 then opt_map BConnect (bk_connect body)
       else if N.eqb hdr 130 then opt_map BSubscribe (bk_subscribe body)
       else if N.eqb hdr 162 then opt_map BUnsubscribe (bk_unsubscribe body)
       else if N.eqb hdr 224 then opt_map BDisconnect (bk_disconnect body)
       else None).
Proof.
  intros cap typ flags cs off bs H. destruct (encode_chunks_inv _ _ _ _ _ _ H) as [rl [body [Hc [Hv [-> _]]]]].
  exists body. split; [exact Hc|]. unfold broker_decode. now rewrite (varint_roundtrip _ _ _ Hv), N.eqb_refl.
Qed.

(* a length-prefixed field is never empty: the functions that test their input for emptiness go on *)
Lemma len_prefixed_cons : forall d x, len_prefixed d = Some x -> exists a b, x = a :: b :: d /\ (2 <= length x)%nat.
Proof.
  intros d x H. apply len_prefixed_inv in H as [-> _]. unfold u16_be. cbn [app]. eexists _, _. split; [reflexivity|]. cbn [length]. lia.
Qed.

Local Opaque u16_be.

Lemma topics_roundtrip : forall topics tb, concat_chunks (map c_str topics) = Some tb ->
  forall fuel, (length tb <= fuel)%nat -> bk_topics fuel tb = Some topics.
Proof.
  induction topics as [|t ts IH]; intros tb H fuel Hf; cbn [map] in H.
  - injection H as <-. now destruct fuel.
  - apply concat_chunks_cons_some in H as [x [tb' [Ex [Et ->]]]].
    destruct (len_prefixed_cons _ _ Ex) as [a [b [Hx Hl]]].
    rewrite app_length in Hf. destruct fuel as [|f]; [lia|].
    cbn [bk_topics]. assert (Hne : x ++ tb' = a :: (b :: t) ++ tb') by now rewrite Hx.
    rewrite Hne at 1. rewrite (bk_field_prefixed t x tb' Ex), (IH tb' Et f) by lia. reflexivity.
Qed.

Theorem unsubscribe_roundtrip : forall cap r off bs,
  enc_unsubscribe cap r = SOk off bs -> uq_pid r < 65536 -> props_ok (uq_props r) -> uq_topics r <> [] ->
  broker_decode bs = Some (BUnsubscribe r).
Proof.
  intros cap r off bs H Hp Hok Hne. unfold enc_unsubscribe in H.
  destruct (decode_frame _ _ _ _ _ _ H) as [body [Hc ->]].
  change (opt_map BUnsubscribe (bk_unsubscribe body) = Some (BUnsubscribe r)).
  unfold unsubscribe_chunks in Hc.
  apply concat_chunks_cons_some in Hc as [pidb [b1 [Ep [Hc ->]]]]. injection Ep as <-.
  apply concat_chunks_app_some in Hc as [pb [tb [Epb [Etb ->]]]].
  unfold bk_unsubscribe. rewrite read_u16_be by exact Hp. rewrite (bk_props_enc _ _ _ Epb Hok).
  rewrite (topics_roundtrip _ _ Etb _ (le_n _)).
  destruct r as [pid ps [|t ts]]; [contradiction|reflexivity].
Qed.

Lemma sub_opts_roundtrip : forall o, so_rh o <= 2 -> sub_opts_of_byte (sub_opts_byte o) = Some o.
Proof.
  intros [q nl rap rh] H. cbn [so_rh] in H.
  assert (Hr : rh = 0 \/ rh = 1 \/ rh = 2) by lia.
  destruct Hr as [Hr|[Hr|Hr]]; subst rh; destruct q, nl, rap; vm_compute; reflexivity.
Qed.

Lemma filters_roundtrip : forall topics tb,
  concat_chunks (flat_map (fun t => [c_str (fst t); c_u8 (sub_opts_byte (snd t))]) topics) = Some tb ->
  Forall (fun t : bytes * sub_opts => so_rh (snd t) <= 2) topics ->
  forall fuel, (length tb <= fuel)%nat -> bk_filters fuel tb = Some topics.
Proof.
  induction topics as [|[t o] ts IH]; intros tb H Hf fuel Hl; cbn [flat_map app fst snd] in H.
  - injection H as <-. now destruct fuel.
  - apply concat_chunks_cons_some in H as [x [r1 [Ex [H ->]]]].
    apply concat_chunks_cons_some in H as [ob [tb' [Eo [Et ->]]]]. injection Eo as <-.
    inversion Hf as [|? ? Ho Hrest]; subst. cbn [snd] in Ho.
    destruct (len_prefixed_cons _ _ Ex) as [a [b [Hx Hlen]]].
    rewrite app_length in Hl. cbn [app length] in Hl. destruct fuel as [|f]; [lia|].
    cbn [bk_filters]. assert (Hne : x ++ [sub_opts_byte o] ++ tb' = a :: (b :: t) ++ [sub_opts_byte o] ++ tb') by now rewrite Hx.
    rewrite Hne at 1. rewrite (bk_field_prefixed t x _ Ex). cbn [app]. rewrite (sub_opts_roundtrip o Ho).
    rewrite (IH tb' Et Hrest f) by lia. reflexivity.
Qed.

Theorem subscribe_roundtrip : forall cap r off bs,
  enc_subscribe cap r = SOk off bs -> sq_pid r < 65536 -> props_ok (sq_props r) -> sq_topics r <> [] ->
  Forall (fun t : bytes * sub_opts => so_rh (snd t) <= 2) (sq_topics r) ->
  broker_decode bs = Some (BSubscribe r).
Proof.
  intros cap r off bs H Hp Hok Hne Hrh. unfold enc_subscribe in H.
  destruct (decode_frame _ _ _ _ _ _ H) as [body [Hc ->]].
  change (opt_map BSubscribe (bk_subscribe body) = Some (BSubscribe r)).
  unfold subscribe_chunks in Hc.
  apply concat_chunks_cons_some in Hc as [pidb [b1 [Ep [Hc ->]]]]. injection Ep as <-.
  apply concat_chunks_app_some in Hc as [pb [tb [Epb [Etb ->]]]].
  unfold bk_subscribe. rewrite read_u16_be by exact Hp. rewrite (bk_props_enc _ _ _ Epb Hok).
  rewrite (filters_roundtrip _ _ Etb Hrh _ (le_n _)).
  destruct r as [pid ps [|t ts]]; [contradiction|reflexivity].
Qed.

Theorem disconnect_roundtrip : forall cap r off bs,
  enc_disconnect cap r = SOk off bs ->
  (dq_reason r = None -> dq_props r = None) ->
  (forall l, dq_props r = Some l -> props_ok l) ->
  broker_decode bs = Some (BDisconnect {| dq_reason := match dq_reason r with Some c => Some (rc_norm c) | None => None end;
                                          dq_props := dq_props r |}).
Proof.
  intros cap [reason props] off bs H Hshape Hok. unfold enc_disconnect in H.
  destruct (decode_frame _ _ _ _ _ _ H) as [body [Hc ->]]. cbn [dq_reason dq_props] in *.
  match goal with |- _ = ?R => change (opt_map BDisconnect (bk_disconnect body) = R) end.
  unfold disconnect_chunks in Hc. cbn [dq_reason dq_props] in Hc.
  destruct reason as [c|]; [|rewrite (Hshape eq_refl) in *; injection Hc as <-; reflexivity].
  destruct props as [l|]; [|injection Hc as <-; reflexivity].
  apply concat_chunks_cons_some in Hc as [cb [pb [Ec [Epb ->]]]]. injection Ec as <-.
  (* the block begins with its length, so it is not empty and bk_disconnect reads a property block *)
  destruct (concat_c_properties _ _ Epb) as [szb [block [_ [Es E]]]]. pose proof (varint_write_len _ _ Es) as Hl.
  unfold bk_disconnect. cbn [app]. destruct pb as [|y ys]; [symmetry in E; apply app_eq_nil in E as [-> _]; rewrite lenN_nil in Hl; lia|].
  rewrite <- (app_nil_r (y :: ys)), (bk_props_enc _ _ _ Epb (Hok l eq_refl)). reflexivity.
Qed.

Lemma flags_bits : forall r, let f := connect_flags r in
  N.testbit f 0 = false /\ N.testbit f 1 = cq_clean r /\
  match cq_will r with
  | Some w => N.testbit f 2 = true /\ qos_of_n ((f / 8) mod 4) = Some (w_qos w) /\ N.testbit f 5 = w_retain w
  | None => N.testbit f 2 = false /\ (f / 8) mod 4 = 0 /\ N.testbit f 5 = false
  end /\
  N.testbit f 7 = (if cq_auth r then true else false) /\ N.testbit f 6 = (if cq_auth r then true else false).
Proof.
  intros [ka ps cid au wl cl]. unfold connect_flags. cbn [cq_clean cq_will cq_auth].
  destruct cl, au, wl as [[? ? [] [] ?]|]; vm_compute; repeat split; reflexivity.
Qed.

Lemma bk_will_enc : forall r wb t, (forall w, cq_will r = Some w -> props_ok (w_props w)) ->
  concat_chunks (match cq_will r with
                 | Some w => c_properties (PSlice (w_props w)) ++ [c_str (w_topic w); c_str (w_data w)]
                 | None => [] end) = Some wb ->
  bk_will (connect_flags r) (wb ++ t) = Some (cq_will r, t).
Proof.
  intros r wb t Hok H. destruct (flags_bits r) as [_ [_ [FW _]]]. cbv zeta in FW. unfold bk_will.
  destruct (cq_will r) as [w|]; destruct FW as [-> [-> ->]]; [|injection H as <-; reflexivity].
  apply concat_chunks_app_some in H as [wpb [fb [Ewp [H ->]]]].
  apply concat_chunks_cons_some in H as [tx [r1 [Etx [H ->]]]].
  apply concat_chunks_cons_some in H as [dx [r2 [Edx [H ->]]]]. injection H as <-.
  rewrite <- !app_assoc, (bk_props_enc _ _ _ Ewp (Hok w eq_refl)).
  rewrite (bk_field_prefixed _ _ _ Etx), (bk_field_prefixed _ _ _ Edx). now destruct w.
Qed.

Lemma bk_auth_enc : forall r ab t,
  concat_chunks (match cq_auth r with Some a => [c_str (a_user a); c_str (a_pass a)] | None => [] end) = Some ab ->
  bk_auth (connect_flags r) (ab ++ t) = Some (cq_auth r, t).
Proof.
  intros r ab t H. destruct (flags_bits r) as [_ [_ [_ [F7 F6]]]]. cbv zeta in F7, F6. unfold bk_auth. rewrite F7, F6.
  destruct (cq_auth r) as [a|]; [|injection H as <-; reflexivity].
  apply concat_chunks_cons_some in H as [ux [r1 [Eux [H ->]]]].
  apply concat_chunks_cons_some in H as [px [r2 [Epx [H ->]]]]. injection H as <-.
  rewrite <- !app_assoc, (bk_field_prefixed _ _ _ Eux), (bk_field_prefixed _ _ _ Epx). now destruct a.
Qed.

Theorem connect_roundtrip : forall cap r off bs,
  enc_connect cap r = SOk off bs -> cq_keepalive r < 65536 -> props_ok (cq_props r) ->
  (forall w, cq_will r = Some w -> props_ok (w_props w)) ->
  broker_decode bs = Some (BConnect r).
Proof.
  intros cap r off bs H Hka Hok Hwok. unfold enc_connect in H.
  destruct (decode_frame _ _ _ _ _ _ H) as [body [Hc ->]].
  change (opt_map BConnect (bk_connect body) = Some (BConnect r)).
  destruct (flags_bits r) as [F0 [F1 _]]. cbv zeta in F0, F1.
  unfold connect_chunks in Hc.
  apply concat_chunks_cons_some in Hc as [nx [r1 [En [Hc ->]]]].
  apply concat_chunks_cons_some in Hc as [vx [r2 [Ev [Hc ->]]]]. injection Ev as <-.
  apply concat_chunks_cons_some in Hc as [fx [r3 [Ef [Hc ->]]]]. injection Ef as <-.
  apply concat_chunks_cons_some in Hc as [kx [r4 [Ek [Hc ->]]]]. injection Ek as <-.
  apply concat_chunks_app_some in Hc as [pb [r5 [Epb [Hc ->]]]].
  apply concat_chunks_cons_some in Hc as [cx [r6 [Ecid [Hc ->]]]].
  apply concat_chunks_app_some in Hc as [wb [ab [Ewb [Eab ->]]]].
  unfold bk_connect. rewrite (bk_field_prefixed _ _ _ En). cbn [app].
  change (list_eqb MQTT_NAME MQTT_NAME) with true. change (5 =? 5) with true. rewrite F0. cbn [andb negb].
  rewrite read_u16_be by exact Hka. rewrite (bk_props_enc _ _ _ Epb Hok).
  rewrite (bk_field_prefixed _ _ _ Ecid), (bk_will_enc r wb ab Hwok Ewb).
  rewrite <- (app_nil_r ab), (bk_auth_enc r ab [] Eab), F1. now destruct r.
Qed.

Lemma rc_norm_idem : forall c, rc_norm (rc_norm c) = rc_norm c.
Proof. intros c. unfold rc_norm. destruct (rc_known c) eqn:E; [now rewrite E|reflexivity]. Qed.

Definition ack_packet_of (typ pid rc : N) : rpacket :=
  if N.eqb typ 4 then RPubAck pid rc else if N.eqb typ 5 then RPubRec pid rc else if N.eqb typ 6 then RPubRel pid rc else RPubComp pid rc.

Lemma de_body_puback : forall l, de_body 64 l = de_ack RPubAck l. Proof. reflexivity. Qed.
Lemma de_body_pubrec : forall l, de_body 80 l = de_ack RPubRec l. Proof. reflexivity. Qed.
Lemma de_body_pubrel : forall l, de_body 98 l = de_ack RPubRel l. Proof. reflexivity. Qed.
Lemma de_body_pubcomp : forall l, de_body 112 l = de_ack RPubComp l. Proof. reflexivity. Qed.

Lemma de_body_ack : forall typ l, In typ [4; 5; 6; 7] ->
  de_body (typ * 16 + (if N.eqb typ 6 then 2 else 0) mod 16) l = de_ack (ack_packet_of typ) l.
Proof. intros typ l [<-|[<-|[<-|[<-|[]]]]]; reflexivity. Qed.

Lemma de_ack_short : forall mk pid, pid < 65536 -> de_ack mk (u16_be pid) = Some (mk pid 0, []).
Proof. intros mk pid Hp. unfold de_ack. rewrite <- (app_nil_r (u16_be pid)), read_u16_be by exact Hp. reflexivity. Qed.

Lemma de_ack_reason : forall mk pid c, pid < 65536 -> de_ack mk (u16_be pid ++ [c]) = Some (mk pid (rc_norm c), []).
Proof. intros mk pid c Hp. unfold de_ack. rewrite read_u16_be by exact Hp. reflexivity. Qed.

Lemma de_suback_block : forall mk pid szb block rest, pid < 65536 -> varint_write (lenN block) = Some szb ->
  de_suback mk (u16_be pid ++ szb ++ block ++ rest) = Some (mk pid block [], rest).
Proof. intros mk pid szb block rest Hp Hs. unfold de_suback. now rewrite read_u16_be, (de_props_block _ _ _ Hs) by exact Hp. Qed.

Theorem enc_ack_decodes : forall cap typ pid rc off bs, In typ [4; 5; 6; 7] -> pid < 65536 ->
  enc_ack cap typ pid rc = SOk off bs -> from_buffer bs = Some (ack_packet_of typ pid (rc_norm rc)).
Proof.
  intros cap typ pid rc off bs Ht Hp H. unfold enc_ack in H.
  destruct (encode_chunks_inv _ _ _ _ _ _ H) as [rl [body [Hc [Hv [-> _]]]]].
  unfold ack_chunks, c_u16, c_u8 in Hc. cbn [concat_chunks app] in Hc. injection Hc as <-.
  apply (from_buffer_frame_whole _ _ _ _ Hv). rewrite (de_body_ack _ _ Ht), de_ack_reason by exact Hp.
  now rewrite rc_norm_idem.
Qed.

Theorem ack_roundtrip : forall typ pid rc off bs, In typ [4; 5; 6; 7] -> pid < 65536 ->
  enc_ack CONTROL_PACKET_LEN typ pid rc = SOk off bs -> from_buffer bs = Some (ack_packet_of typ pid (rc_norm rc)).
Proof. intros typ. apply enc_ack_decodes. Qed.

Lemma session_connect_props_ok : forall s, cf_expiry (s_cfg s) < 4294967296 -> props_ok (cq_props (connect_request s)).
Proof.
  intros s He. unfold props_ok, connect_request. cbn [cq_props forallb].
  pose proof (N.mod_upper_bound (rcap (s_reader s)) 4294967296 ltac:(lia)) as Hm.
  assert (W1 : prop_wf (mkprop KMaximumPacketSize (rcap (s_reader s) mod 4294967296) [] []) = true).
  { unfold prop_wf, mkprop. cbn [pk pnum kind_shape]. now apply N.ltb_lt. }
  assert (W2 : prop_wf (mkprop KSessionExpiryInterval (cf_expiry (s_cfg s)) [] []) = true).
  { unfold prop_wf, mkprop. cbn [pk pnum kind_shape]. now apply N.ltb_lt. }
  rewrite W1, W2. split; reflexivity.
Qed.

Theorem session_connect_decodes : forall s cap off bs,
  cf_expiry (s_cfg s) < 4294967296 ->
  (forall w, cf_will (s_cfg s) = Some w -> props_ok (w_props w)) ->
  enc_connect cap (connect_request s) = SOk off bs ->
  broker_decode bs = Some (BConnect (connect_request s)) /\
  cq_keepalive (connect_request s) = cf_keepalive_s (s_cfg s) mod 65536 /\
  cq_clean (connect_request s) = negb (s_sp s) /\ cq_client_id (connect_request s) = s_client_id s /\
  cq_will (connect_request s) = cf_will (s_cfg s) /\ cq_auth (connect_request s) = cf_auth (s_cfg s) /\
  In (mkprop KMaximumPacketSize (rcap (s_reader s) mod 4294967296) [] []) (cq_props (connect_request s)) /\
  In (mkprop KSessionExpiryInterval (cf_expiry (s_cfg s)) [] []) (cq_props (connect_request s)) /\
  In (mkprop KReceiveMaximum 8 [] []) (cq_props (connect_request s)).
Proof.
  intros s cap off bs He Hw H. split.
  - apply (connect_roundtrip cap _ off bs H).
    + cbn [connect_request cq_keepalive]. apply N.mod_upper_bound. lia.
    + now apply session_connect_props_ok.
    + exact Hw.
  - cbn [connect_request cq_keepalive cq_clean cq_client_id cq_will cq_auth cq_props In]. repeat split; auto.
Qed.

(* non-vacuity: a request with will, credentials, properties and several filters meets every premise *)
Definition ex_connect : connect_req :=
  {| cq_keepalive := 60; cq_props := [mkprop KSessionExpiryInterval 5 [] []]; cq_client_id := [97; 98];
     cq_auth := Some {| a_user := [117]; a_pass := [] |};
     cq_will := Some {| w_topic := [116]; w_data := [1; 2]; w_qos := Q1; w_retain := true;
                        w_props := [mkprop KUserProperty 0 [97] [98]] |};
     cq_clean := true |}.
Definition ex_subscribe : subscribe_req :=
  {| sq_pid := 7; sq_props := [mkprop KSubscriptionIdentifier 300 [] []];
     sq_topics := [([97], {| so_qos := Q2; so_no_local := true; so_rap := false; so_rh := 2 |});
                   ([98; 47; 35], {| so_qos := Q0; so_no_local := false; so_rap := true; so_rh := 0 |})] |}.

Example roundtrip_examples :
  (exists off bs, enc_connect 100 ex_connect = SOk off bs /\ broker_decode bs = Some (BConnect ex_connect)) /\
  (exists off bs, enc_subscribe 100 ex_subscribe = SOk off bs /\ broker_decode bs = Some (BSubscribe ex_subscribe)) /\
  forallb prop_wf (cq_props ex_connect) = true /\ forallb prop_canon (sq_props ex_subscribe) = true.
Proof.
  split; [|split; [|split; reflexivity]].
  - eexists _, _. split; [vm_compute; reflexivity|vm_compute; reflexivity].
  - eexists _, _. split; [vm_compute; reflexivity|vm_compute; reflexivity].
Qed.
