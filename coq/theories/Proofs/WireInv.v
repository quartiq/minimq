(* WireInv.v — session-level invariants behind the wire theorem of C01, each closed under every `sstep`:
   FrameInv  every retained packet in the arena is one whole MQTT packet (first byte, canonical length, body);
   CtlShape  in the control queue only the head can be in progress, nothing is "sent" (sent entries leave at once);
   Single    at most one entry of the three queues is in progress (partly written or awaiting its flush);
   WInv      the three together with `Inv`: what the later files carry along. *)
From Coq Require Import List NArith Lia PeanoNat.
From Minimq Require Import Bytes Ser Arena Core Lts ArenaLemmas ArenaOps Inv Quota Status Persist Frames Effects Engine.
Import ListNotations.
Local Open Scope N_scope.

Definition is_frame (f : bytes) : Prop := exists first, frame first f.

Definition FrameInv (o : outbound) : Prop := Forall (fun k => is_frame (snd k)) (map a_key (abs o)).

Lemma FrameInv_keys : forall o o', map a_key (abs o') = map a_key (abs o) -> FrameInv o -> FrameInv o'.
Proof. intros o o' H F. unfold FrameInv. now rewrite H. Qed.

Lemma frame_dup : forall bs, is_frame bs -> is_frame (dup_bytes bs).
Proof. intros bs [first [rl [body [-> Hv]]]]. exists (set_bit3 first). exists rl, body. split; [reflexivity|exact Hv]. Qed.

Lemma FrameInv_compact : forall o, arena_wf o -> FrameInv o -> FrameInv (compact o).
Proof. intros o W F. destruct (compact_spec o W) as [_ [C2 _]]. unfold FrameInv. now rewrite C2. Qed.

Lemma FrameInv_dup : forall o, arena_wf o -> FrameInv o -> FrameInv (mark_retained_dup o).
Proof.
  intros o W F. destruct (mark_retained_dup_spec o W) as [_ [M2 _]]. unfold FrameInv in *. rewrite M2, map_map.
  rewrite Forall_map in *. eapply Forall_impl; [|exact F]. intros [[p b] st] H. cbn [a_key dup_aentry a_bytes fst snd] in *.
  now apply frame_dup.
Qed.

Lemma FrameInv_arm_replay : forall o, arena_wf o -> FrameInv o -> FrameInv (arm_replay o).
Proof.
  intros o W F. destruct (arm_replay_cases o) as [->|Hs]; [exact F|].
  eapply FrameInv_keys; [apply keys_states_only, Hs | now apply FrameInv_dup].
Qed.

Lemma abs_remove_sub : forall pid l l' (a : aentry), abs_remove pid l = Some l' -> In a l' -> In a l.
Proof.
  induction l as [|[[p b] st] t IH]; intros l' a H Hin; cbn [abs_remove] in H; [discriminate|].
  destruct (N.eqb_spec p pid).
  - inversion H; subst. now right.
  - destruct (abs_remove pid t) as [t'|] eqn:E; [|discriminate]. inversion H; subst.
    destruct Hin as [<-|Hin]; [now left|right; eapply IH; eauto].
Qed.

Lemma FrameInv_ack : forall o pid, arena_wf o -> FrameInv o -> FrameInv (fst (ack_packet o pid)).
Proof.
  intros o pid W F. destruct (ack_packet o pid) as [o' f] eqn:E. cbn [fst].
  destruct (ack_packet_spec o pid o' f W E) as [_ [_ [_ [_ Hf]]]]. destruct f; [|destruct Hf as [-> _]; exact F].
  unfold FrameInv in *. rewrite Forall_map in *. rewrite Forall_forall in *. intros a Ha. apply F. eapply abs_remove_sub; eassumption.
Qed.

Lemma FrameInv_encode_at : forall o enc, OInv o -> fits enc -> FrameInv o -> FrameInv (fst (encode_at o enc)).
Proof.
  intros o enc H Henc F. destruct (encode_at_spec _ _ _ _ (oi_arena _ H) Henc (surjective_pairing _)) as [_ [Ab _]].
  unfold FrameInv. now rewrite Ab.
Qed.

Lemma FrameInv_retain : forall o enc o1 off len id o2, OInv o -> fits enc ->
  (forall cap off' bs, enc cap = SOk off' bs -> is_frame bs) ->
  encode_at o enc = (o1, EOk off len) -> retain_packet o1 id off len = Some o2 ->
  FrameInv o -> FrameInv o2.
Proof.
  intros o enc o1 off len id o2 H Henc Hfr He Hr F.
  destruct (encode_retain_spec o enc o1 off len id o2 (oi_arena _ H) Henc He Hr) as [nb [_ [Ab [_ [[cap [off' Hx]] _]]]]].
  unfold FrameInv in *. rewrite Ab, map_app, Forall_app. split; [exact F|]. constructor; [|constructor].
  cbn [a_key a_bytes fst snd]. eapply Hfr. exact Hx.
Qed.

Lemma FrameInv_hp : forall s p s', hp_eff s p s' -> Inv s -> FrameInv (s_ob s) -> FrameInv (s_ob s').
Proof.
  intros s p s' E I H. pose proof (fun pid => FrameInv_ack (s_ob s) pid (oi_arena _ (inv_ob _ I)) H) as Ha.
  destruct E as [|a o v Eq _|i v _|pid o _ Ea|pid o _ Ea|pid o o2 _ Ea Eq|pid o Ea|]; cbn [set_srv set_rt set_ob s_ob]; try exact H;
    try (specialize (Ha pid); rewrite Ea in Ha; exact Ha).
  - apply queue_control_inv in Eq. destruct Eq as [-> _]. exact H.
  - specialize (Ha pid). rewrite Ea in Ha. apply queue_release_inv in Eq. destruct Eq as [-> _]. exact Ha.
  - apply ack_release_inv in Ea. destruct Ea as [es [_ ->]]. exact H.
Qed.

Lemma req_enc_frames : forall dec e cap off bs, req_enc dec e -> e cap = SOk off bs -> is_frame bs.
Proof.
  intros dec e cap off bs [r|r|r] H; eexists;
    [exact (proj1 (enc_publish_frame _ _ _ _ H)) | exact (proj1 (enc_subscribe_frame _ _ _ _ H)) | exact (proj1 (enc_unsubscribe_frame _ _ _ _ H))].
Qed.

Lemma FrameInv_mid : forall D dec live s s' m, mid_out (fun _ => req_enc dec) D dec live s s' m -> Inv s -> FrameInv (s_ob s) -> FrameInv (s_ob s').
Proof.
  intros D dec live s s' m M I H. pose proof (inv_ob _ I) as O.
  destruct M as [e _|e _ _|bs _ _ _ _|p id e _ _|p id enc e _ Ee _|p id enc o1 off len o2 k _ Ee Ea _ Er _]; cbn [set_pid set_ob s_ob]; try exact H.
  1, 2: apply FrameInv_compact; [apply O|exact H].
  - apply FrameInv_encode_at; [exact O | exact (req_enc_fits _ _ Ee) | exact H].
  - assert (F2 : FrameInv o2).
    { eapply (FrameInv_retain (s_ob s) enc); [exact O | exact (req_enc_fits _ _ Ee) | | exact Ea | exact Er | exact H].
      intros cap off' bs. apply (req_enc_frames _ _ _ _ _ Ee). }
    destruct dec; exact F2.
Qed.

Theorem FrameInv_step : forall s l s', sstep s l s' -> Inv s -> FrameInv (s_ob s) -> FrameInv (s_ob s').
Proof.
  intros s l s' H I He. pose proof (oi_arena _ (inv_ob _ I)) as W.
  destruct (sstep_seff _ _ _ H) as [o r rd Ho _ _|p|D dec live s' m M|sp a its now _|p _].
  - cbn [set_reader set_rt set_ob s_ob]. destruct Ho as [| | |a o Eq|st p bs w len n _ _|p now].
    + exact He.
    + now apply FrameInv_arm_replay.
    + now apply FrameInv_compact.
    + apply queue_control_inv in Eq. destruct Eq as [-> _]. exact He.
    + exact (FrameInv_keys _ _ (keys_states_only _ _ (set_written_states s p (w + n) len)) He).
    + exact (FrameInv_keys _ _ (keys_states_only _ _ (complete_flush_states s p now)) He).
  - exact (FrameInv_hp _ _ _ (handle_packet_eff _ _ _ _ (surjective_pairing _)) I He).
  - exact (FrameInv_mid _ _ _ _ _ _ M I He).
  - destruct sp; [exact He|]. constructor.
  - exact He.
Qed.

Definition ipl (l : list sstate) : nat := length (filter is_in_progress l).
Definition nip (o : outbound) : nat :=
  (ipl (map ce_st (ob_ctl o)) + ipl (map le_st (ob_rel o)) + ipl (map re_st (ob_ret o)))%nat.
Definition Single (o : outbound) : Prop := (nip o <= 1)%nat.

Definition CtlShape (l : list centry) : Prop :=
  match l with
  | [] => True
  | e :: t => ce_st e <> SSent /\ Forall (fun x => is_fresh (ce_st x) = true) t
  end.

(* relation "nothing got worse" between two outbound states *)
Definition calm (o o' : outbound) : Prop :=
  (nip o' <= nip o)%nat /\ (CtlShape (ob_ctl o) -> CtlShape (ob_ctl o')).

Definition ppl (l : list sstate) : nat := length (filter sstate_partial l).
Definition npart (o : outbound) : nat :=
  (ppl (map ce_st (ob_ctl o)) + ppl (map le_st (ob_rel o)) + ppl (map re_st (ob_ret o)))%nat.
Definition calmp (o o' : outbound) : Prop :=
  (npart o' <= npart o)%nat /\ (CtlShape (ob_ctl o) -> CtlShape (ob_ctl o')).

Lemma fresh_not_partial : forall s, is_fresh s = true -> sstate_partial s = false.
Proof. intros [w| |] H; cbn in *; try discriminate. now rewrite H. Qed.

Lemma CtlShape_all_fresh : forall l, Forall (fun x => is_fresh (ce_st x) = true) l -> CtlShape l.
Proof.
  intros [|e t] H; [exact I|]. inversion H; subst. split; [|assumption]. intros E. rewrite E in H2. discriminate.
Qed.
Lemma CtlShape_app_fresh : forall l a, CtlShape l -> CtlShape (l ++ [{| ce_act := a; ce_st := SWrite 0 |}]).
Proof.
  intros [|e t] a H; cbn [app CtlShape].
  - split; [discriminate|constructor].
  - destruct H as [H1 H2]. split; [exact H1|]. apply Forall_app. split; [exact H2|]. constructor; [reflexivity|constructor].
Qed.

Lemma update_first_Forall : forall {A} (P Q : A -> Prop) (p : A -> bool) (f : A -> A) l,
  Forall P l -> (forall x, Q (f x)) -> Forall (fun x => P x \/ Q x) (fst (update_first p f l)).
Proof.
  induction l as [|y t IH]; intros H Hf; cbn [update_first]; [constructor|]. inversion H; subst.
  destruct (p y); cbn [fst].
  - constructor; [right; apply Hf|]. eapply Forall_impl; [|eassumption]. now left.
  - destruct (update_first p f t) as [t' b] eqn:E. cbn [fst] in *. constructor; [now left|]. now apply IH.
Qed.

(* a completed flush of a control entry: it becomes Sent and leaves the queue *)
Lemma CtlShape_flush : forall a l, CtlShape l ->
  CtlShape (filter (fun e => negb (sstate_eqb (ce_st e) SSent))
                   (fst (update_first (fun e => caction_eqb (ce_act e) a) (fun e => {| ce_act := ce_act e; ce_st := SSent |}) l))).
Proof.
  intros a [|h t] H; [exact I|]. destruct H as [H1 H2]. cbn [update_first].
  destruct (caction_eqb (ce_act h) a); cbn [fst filter ce_st sstate_eqb negb].
  - rewrite filter_unsent_fresh by exact H2. now apply CtlShape_all_fresh.
  - (* the head stays; what is left of the tail after the filter was in the tail before, hence fresh *)
    pose proof (update_first_Forall _ (fun x => ce_st x = SSent) (fun e => caction_eqb (ce_act e) a)
                  (fun e => {| ce_act := ce_act e; ce_st := SSent |}) t H2 (fun _ => eq_refl)) as F.
    destruct (update_first _ _ t) as [t' b]. cbn [fst filter] in *.
    assert (Ft : Forall (fun x => is_fresh (ce_st x) = true) (filter (fun e => negb (sstate_eqb (ce_st e) SSent)) t')).
    { rewrite Forall_forall in *. intros x Hx. apply filter_In in Hx. destruct Hx as [Hx Hs].
      destruct (F x Hx) as [Fx|Fx]; [exact Fx|]. rewrite Fx in Hs. discriminate. }
    destruct (ce_st h) as [w| |] eqn:Eh; try contradiction; cbn [sstate_eqb negb]; (split; [rewrite Eh; discriminate|exact Ft]).
Qed.

(* `is_in_progress` and `sstate_partial` are both false of a fresh and of a sent entry, and the counts need no more:
   every operation of the outbound side other than the engine's write appends fresh entries, removes entries, marks
   one sent or starts all of them afresh.  So the lemmas are proved for any such condition `q`. *)
Section Count.
Variable q : sstate -> bool.

Definition cnt (l : list sstate) : nat := length (filter q l).
Definition ocnt (o : outbound) : nat :=
  (cnt (map ce_st (ob_ctl o)) + cnt (map le_st (ob_rel o)) + cnt (map re_st (ob_ret o)))%nat.
Definition calmq (o o' : outbound) : Prop :=
  (ocnt o' <= ocnt o)%nat /\ (CtlShape (ob_ctl o) -> CtlShape (ob_ctl o')).

Lemma cnt_app : forall a b, cnt (a ++ b) = (cnt a + cnt b)%nat.
Proof. intros. unfold cnt. now rewrite filter_app, app_length. Qed.
Lemma cnt_cons : forall x l, cnt (x :: l) = ((if q x then 1 else 0) + cnt l)%nat.
Proof. intros. unfold cnt. cbn [filter]. destruct (q x); reflexivity. Qed.
Lemma cnt_none : forall l, Forall (fun s => q s = false) l -> cnt l = 0%nat.
Proof. induction l as [|x t IH]; intros H; [reflexivity|]. inversion H; subst. rewrite cnt_cons, H2, IH; auto. Qed.
Lemma cnt_none_inv : forall l, cnt l = 0%nat -> Forall (fun s => q s = false) l.
Proof.
  induction l as [|x t IH]; intros H; [constructor|]. rewrite cnt_cons in H. destruct (q x) eqn:E; [lia|].
  constructor; [exact E|apply IH; lia].
Qed.
Lemma calmq_refl : forall o, calmq o o.
Proof. intros. split; [lia|auto]. Qed.
Lemma calmq_trans : forall a b c, calmq a b -> calmq b c -> calmq a c.
Proof. intros a b c [H1 H2] [H3 H4]. split; [lia|auto]. Qed.
Lemma calmq_same_lists : forall o o', ob_ctl o' = ob_ctl o ->
  map le_st (ob_rel o') = map le_st (ob_rel o) -> map re_st (ob_ret o') = map re_st (ob_ret o) -> calmq o o'.
Proof. intros o o' H1 H2 H3. split; [unfold ocnt; rewrite H1, H2, H3; lia|now rewrite H1]. Qed.

Lemma calmq_compact : forall o, arena_wf o -> calmq o (compact o).
Proof.
  intros o W. pose proof (compact_spec o W) as C.
  apply calmq_same_lists; [apply C|f_equal; apply C|apply C].
Qed.
Lemma calmq_dup : forall o, calmq o (mark_retained_dup o).
Proof. intros. apply calmq_same_lists; reflexivity. Qed.
Lemma cnt_remove_mid : forall a (x : sstate) b, (cnt (a ++ b) <= cnt (a ++ x :: b))%nat.
Proof. intros. rewrite !cnt_app, cnt_cons. lia. Qed.
Lemma calmq_ack_packet : forall o pid, arena_wf o -> calmq o (fst (ack_packet o pid)).
Proof.
  intros o pid W. unfold ack_packet. destruct (remove_first_ret pid (ob_ret o)) as [es|] eqn:E; cbn [fst]; [|apply calmq_refl].
  destruct (remove_first_ret_order _ _ _ E) as [a [x [b [H1 [H2 _]]]]].
  set (o1 := {| ob_buf := ob_buf o; ob_used := ob_used o; ob_ctl := ob_ctl o; ob_ret := es; ob_rel := ob_rel o |}).
  assert (C1 : calmq o o1).
  { split; [|auto]. unfold ocnt, o1. cbn [ob_ctl ob_rel ob_ret]. rewrite H1, H2, !map_app. cbn [map].
    pose proof (cnt_remove_mid (map re_st a) (re_st x) (map re_st b)). lia. }
  eapply calmq_trans; [exact C1|]. apply calmq_compact.
  destruct W as [W U]. split; [|exact U]. unfold o1. cbn [ob_ret ob_used]. eapply remove_first_ret_wf; eassumption.
Qed.
Lemma calmq_ack_release : forall o pid, calmq o (fst (ack_release o pid)).
Proof.
  intros o pid. unfold ack_release. destruct (remove_first_rel pid (ob_rel o)) as [es|] eqn:E; cbn [fst]; [|apply calmq_refl].
  destruct (remove_first_rel_order _ _ _ E) as [a [x [b [H1 [H2 _]]]]]. split; [|auto].
  unfold ocnt. cbn [ob_ctl ob_rel ob_ret]. rewrite H1, H2, !map_app. cbn [map].
  pose proof (cnt_remove_mid (map le_st a) (le_st x) (map le_st b)). lia.
Qed.
Lemma calmq_encode_at : forall o enc, arena_wf o -> calmq o (fst (encode_at o enc)).
Proof.
  intros o enc W. unfold encode_at. destruct (enc _); cbn [fst]; [|now apply calmq_compact].
  eapply calmq_trans; [apply calmq_compact; exact W|]. apply calmq_same_lists; reflexivity.
Qed.
Lemma no_pending_ocnt : forall o, has_pending_state o = false -> ocnt o = 0%nat.
Proof.
  intros o H. unfold has_pending_state in H. destruct (ob_ctl o) eqn:E1; [|discriminate]. destruct (ob_ret o) eqn:E2; [|discriminate].
  destruct (ob_rel o) eqn:E3; [|discriminate]. unfold ocnt. now rewrite E1, E2, E3.
Qed.

Hypothesis q_idle : q (SWrite 0) = false /\ q SSent = false.

Lemma cnt_snoc_fresh : forall l, cnt (l ++ [SWrite 0]) = cnt l.
Proof. intros. rewrite cnt_app, cnt_cons, (proj1 q_idle). cbn. lia. Qed.
Lemma cnt_reset : forall {A} (f : A -> sstate) (l : list A), (forall x, f x = SWrite 0) -> cnt (map f l) = 0%nat.
Proof.
  intros A f l Hf. apply cnt_none, Forall_forall. intros x Hx. apply in_map_iff in Hx. destruct Hx as [y [<- _]].
  rewrite Hf. apply q_idle.
Qed.

Lemma calmq_queue_control : forall o a o', queue_control o a = Some o' -> calmq o o'.
Proof.
  intros o a o' H. unfold queue_control in H. destruct (_ <=? _); [discriminate|]. injection H as <-. split.
  - unfold ocnt. cbn [ob_ctl ob_rel ob_ret]. rewrite map_app. cbn [map ce_st]. rewrite cnt_snoc_fresh. lia.
  - cbn [ob_ctl]. apply CtlShape_app_fresh.
Qed.
Lemma calmq_queue_release : forall o pid rc o', queue_release o pid rc = Some o' -> calmq o o'.
Proof.
  intros o pid rc o' H. unfold queue_release in H. destruct (_ <=? _); [discriminate|]. injection H as <-. split; [|auto].
  unfold ocnt. cbn [ob_ctl ob_rel ob_ret]. rewrite map_app. cbn [map le_st]. rewrite cnt_snoc_fresh. lia.
Qed.
Lemma calmq_retain : forall o pid off len o', retain_packet o pid off len = Some o' -> calmq o o'.
Proof.
  intros o pid off len o' H. unfold retain_packet in H. destruct (_ <=? _); [discriminate|]. injection H as <-. split; [|auto].
  unfold ocnt. cbn [ob_ctl ob_rel ob_ret]. rewrite map_app. cbn [map re_st]. rewrite cnt_snoc_fresh. lia.
Qed.
Lemma calmq_hp : forall s p s', hp_eff s p s' -> Inv s -> calmq (s_ob s) (s_ob s').
Proof.
  intros s p s' E I. pose proof (fun pid => calmq_ack_packet (s_ob s) pid (oi_arena _ (inv_ob _ I))) as Ha.
  destruct E as [|a o v Eq _|i v _|pid o _ Ea|pid o _ Ea|pid o o2 _ Ea Eq|pid o Ea|]; cbn [set_srv set_rt set_ob s_ob]; try apply calmq_refl;
    try (specialize (Ha pid); rewrite Ea in Ha; exact Ha).
  - eapply calmq_queue_control; exact Eq.
  - specialize (Ha pid). rewrite Ea in Ha. eapply calmq_trans; [exact Ha|eapply calmq_queue_release; exact Eq].
  - pose proof (calmq_ack_release (s_ob s) pid) as Hr. rewrite Ea in Hr. exact Hr.
Qed.

Lemma calmq_mid : forall E D dec live s s' m, mid_out E D dec live s s' m -> Inv s -> calmq (s_ob s) (s_ob s').
Proof.
  intros E D dec live s s' m M I. pose proof (oi_arena _ (inv_ob _ I)) as W.
  destruct M as [e _|e _ _|bs _ _ _ _|p id e _ _|p id enc e _ _ _|p id enc o1 off len o2 k _ _ Ea _ Er _]; cbn [set_pid set_ob s_ob]; try apply calmq_refl.
  1, 2: now apply calmq_compact.
  - now apply calmq_encode_at.
  - pose proof (calmq_encode_at (s_ob s) enc W) as He. rewrite Ea in He.
    assert (C : calmq (s_ob s) o2) by (eapply calmq_trans; [exact He|eapply calmq_retain; exact Er]).
    destruct dec; exact C.
Qed.

Lemma ocnt_arm_replay : forall o, ocnt (arm_replay o) = 0%nat.
Proof.
  intros o. unfold arm_replay. destruct (has_pending_state o) eqn:E; cbn [negb]; [|now apply no_pending_ocnt].
  unfold ocnt. cbn [ob_ctl ob_rel ob_ret]. rewrite !map_map, !cnt_reset; reflexivity.
Qed.
Lemma calmq_arm_replay : forall o, calmq o (arm_replay o).
Proof.
  intros o. split; [rewrite ocnt_arm_replay; lia|].
  intros _. unfold arm_replay. destruct (has_pending_state o) eqn:E; cbn [negb].
  - cbn [ob_ctl mark_retained_dup]. apply CtlShape_all_fresh. apply Forall_forall. intros x Hx. apply in_map_iff in Hx.
    destruct Hx as [y [<- _]]. reflexivity.
  - unfold has_pending_state in E. destruct (ob_ctl o); [exact I|discriminate].
Qed.

Lemma cnt_update_sent : forall {A} (st : A -> sstate) (p : A -> bool) (f : A -> A) l,
  (forall x, st (f x) = SSent) -> (cnt (map st (fst (update_first p f l))) <= cnt (map st l))%nat.
Proof.
  intros A st p f l Hf. induction l as [|x t IH]; cbn [update_first fst map]; [lia|].
  destruct (p x); cbn [fst map].
  - rewrite !cnt_cons, Hf, (proj2 q_idle). lia.
  - destruct (update_first p f t) as [t' b]. cbn [fst map] in *. rewrite !cnt_cons. lia.
Qed.
Lemma cnt_filter_notsent : forall l, cnt (map ce_st (filter (fun e => negb (sstate_eqb (ce_st e) SSent)) l)) = cnt (map ce_st l).
Proof.
  induction l as [|x t IH]; [reflexivity|]. cbn [filter map]. destruct (ce_st x) as [w| |] eqn:E; cbn [sstate_eqb negb map];
    rewrite ?cnt_cons, ?E, ?(proj2 q_idle), IH; reflexivity.
Qed.

Lemma calmq_complete_flush : forall s p now, calmq (s_ob s) (s_ob (fst (complete_flush s p now))).
Proof.
  intros s p now. unfold complete_flush. destruct p as [a|pid|pid].
  - unfold flush_control.
    pose proof (cnt_update_sent ce_st (fun e => caction_eqb (ce_act e) a) (fun e => {| ce_act := ce_act e; ce_st := SSent |}) (ob_ctl (s_ob s)) (fun _ => eq_refl)) as Hu.
    pose proof (CtlShape_flush a (ob_ctl (s_ob s))) as Hs.
    destruct (update_first _ _ (ob_ctl (s_ob s))) as [l b]. cbn [fst set_rt set_ob s_ob with_ctl] in *.
    split; [|exact Hs]. unfold ocnt, with_ctl. cbn [ob_ctl ob_rel ob_ret]. rewrite cnt_filter_notsent. lia.
  - unfold flush_release.
    pose proof (cnt_update_sent le_st (fun e => N.eqb (le_pid e) pid) (fun e => {| le_pid := le_pid e; le_rc := le_rc e; le_st := SSent |}) (ob_rel (s_ob s)) (fun _ => eq_refl)) as Hu.
    destruct (update_first _ _ (ob_rel (s_ob s))) as [l b]. cbn [fst set_rt set_ob s_ob with_rel] in *.
    split; [|auto]. unfold ocnt, with_rel. cbn [ob_ctl ob_rel ob_ret]. lia.
  - unfold flush_retained.
    pose proof (cnt_update_sent re_st (fun e => N.eqb (re_pid e) pid) (fun e => {| re_pid := re_pid e; re_off := re_off e; re_len := re_len e; re_st := SSent |}) (ob_ret (s_ob s)) (fun _ => eq_refl)) as Hu.
    destruct (update_first _ _ (ob_ret (s_ob s))) as [l b]. cbn [fst set_rt set_ob s_ob with_ret] in *.
    split; [|auto]. unfold ocnt, with_ret. cbn [ob_ctl ob_rel ob_ret]. lia.
Qed.
End Count.

Lemma idle_ip : is_in_progress (SWrite 0) = false /\ is_in_progress SSent = false.
Proof. now split. Qed.
Lemma idle_partial : sstate_partial (SWrite 0) = false /\ sstate_partial SSent = false.
Proof. now split. Qed.

(* `calm` is `calmq is_in_progress` and `calmp` is `calmq sstate_partial`, by unfolding *)
Lemma ppl_app : forall a b, ppl (a ++ b) = (ppl a + ppl b)%nat.
Proof. exact (cnt_app _). Qed.
Lemma ppl_cons : forall x l, ppl (x :: l) = ((if sstate_partial x then 1 else 0) + ppl l)%nat.
Proof. exact (cnt_cons _). Qed.
Lemma ppl_fresh_all : forall l, Forall (fun s => sstate_partial s = false) l -> ppl l = 0%nat.
Proof. exact (cnt_none _). Qed.

Lemma ppl_zero_forall : forall l, ppl l = 0%nat -> Forall (fun s => sstate_partial s = false) l.
Proof. exact (cnt_none_inv _). Qed.

Lemma npart_queue_control : forall o a o', queue_control o a = Some o' -> (npart o' <= npart o)%nat.
Proof. intros o a o' H. exact (proj1 (calmq_queue_control _ idle_partial o a o' H)). Qed.
Lemma npart_compact : forall o, arena_wf o -> (npart (compact o) <= npart o)%nat.
Proof. intros o W. exact (proj1 (calmq_compact _ o W)). Qed.
Lemma npart_handle_packet : forall s p, Inv s -> (npart (s_ob (fst (handle_packet s p))) <= npart (s_ob s))%nat.
Proof. intros s p I. exact (proj1 (calmq_hp _ idle_partial _ _ _ (handle_packet_eff _ _ _ _ (surjective_pairing _)) I)). Qed.
Lemma npart_mid : forall E D dec live s s' m, mid_out E D dec live s s' m -> Inv s -> (npart (s_ob s') <= npart (s_ob s))%nat.
Proof. intros E D dec live s s' m M I. exact (proj1 (calmq_mid _ idle_partial _ _ _ _ _ _ _ M I)). Qed.
Lemma npart_complete_flush : forall s p now, (npart (s_ob (fst (complete_flush s p now))) <= npart (s_ob s))%nat.
Proof. intros s p now. exact (proj1 (calmq_complete_flush _ idle_partial s p now)). Qed.
Lemma npart_arm_replay : forall o, npart (arm_replay o) = 0%nat.
Proof. exact (ocnt_arm_replay _ idle_partial). Qed.

Lemma calm_dup : forall o, calm o (mark_retained_dup o).
Proof. exact (calmq_dup _). Qed.
Lemma calmp_dup : forall o, calmp o (mark_retained_dup o).
Proof. exact (calmq_dup _). Qed.
Lemma no_pending_nip : forall o, has_pending_state o = false -> nip o = 0%nat.
Proof. exact (no_pending_ocnt _). Qed.
Lemma calmp_arm_replay : forall o, calmp o (arm_replay o).
Proof. exact (calmq_arm_replay _ idle_partial). Qed.

Lemma next_step_entry : forall o st, next_step o = Some st ->
  match st with
  | StCtl a s0 => exists e, In e (ob_ctl o) /\ ce_act e = a /\ ce_st e = s0
  | StRel pid rc s0 => exists e, In e (ob_rel o) /\ le_pid e = pid /\ le_rc e = rc /\ le_st e = s0
  | StRet pid off len s0 => exists e, In e (ob_ret o) /\ re_pid e = pid /\ re_off e = off /\ re_len e = len /\ re_st e = s0
  end.
Proof.
  intros o st H. destruct (next_step_pass_of _ _ H) as [b [P _]]. destruct (pass_pick _ _ _ P) as [_ [[e [pre [post [E [-> _]]]]]|[[_ [e [pre [post [E [-> _]]]]]]|[_ [_ [e [pre [post [E [-> _]]]]]]]]]];
    exists e; rewrite E; (split; [apply in_or_app; right; now left|repeat split]).
Qed.

(* under CtlShape the control entry the engine picks is the head of the queue: an entry behind the head is fresh, so
   the pass for entries in progress does not pick it, and the pass for fresh entries runs only when nothing is in
   progress, when the head, which is not sent, is fresh itself *)
Lemma ctl_step_head : forall o a st, CtlShape (ob_ctl o) -> next_step o = Some (StCtl a st) ->
  exists t, ob_ctl o = {| ce_act := a; ce_st := st |} :: t.
Proof.
  intros o a st Hs H. destruct (next_step_pass_of _ _ H) as [b [P Hq]].
  destruct (pass_pick _ _ _ P) as [Hm [[e [pre [post [E [X F]]]]]|[[_ [e [pre [post [_ [X _]]]]]]|[_ [_ [e [pre [post [_ [X _]]]]]]]]]];
    try discriminate.
  injection X as -> ->. destruct pre as [|h pre]; [exists post; rewrite E; now destruct e|]. exfalso.
  unfold items in Hq. rewrite E in Hs, Hq. cbn [app map CtlShape] in Hs, Hq. destruct Hs as [Hh Ht]. apply Forall_elt in Ht.
  inversion F as [|? ? Fh _]. destruct b; cbn [step_state matches_priority] in Hm, Fh.
  - rewrite (fresh_quiet _ Ht) in Hm. discriminate.
  - specialize (Hq eq_refl). inversion Hq as [|? ? Qh _]. unfold quiet in Qh. cbn [ctl_item fst] in Qh.
    destruct (ce_st h) as [w| |]; cbn [is_fresh is_in_progress] in *; [destruct (N.eqb w 0)| |]; try discriminate. now apply Hh.
Qed.

Lemma NoDup_app_l : forall (a b : list N), NoDup (a ++ b) -> NoDup a.
Proof.
  induction a as [|x t IH]; intros b H; [constructor|]. cbn [app] in H. inversion H; subst.
  constructor; [intros Hi; apply H2; apply in_or_app; now left|eapply IH; eassumption].
Qed.
Lemma NoDup_app_r : forall (a b : list N), NoDup (a ++ b) -> NoDup b.
Proof. induction a as [|x t IH]; intros b H; [exact H|]. cbn [app] in H. inversion H; subst. now apply IH. Qed.
Lemma nodup_ids : forall o, NoDup (ids o) -> NoDup (map re_pid (ob_ret o)) /\ NoDup (map le_pid (ob_rel o)).
Proof. intros o H. unfold ids in H. split; [eapply NoDup_app_l|eapply NoDup_app_r]; exact H. Qed.

Lemma sws_not_sent : forall w len, set_written_state w len <> SSent.
Proof. intros. unfold set_written_state. destruct (_ <=? _); discriminate. Qed.

Lemma nip_items : forall o, nip o = busy (map fst (items o)).
Proof. intros. unfold nip, items. now rewrite !map_app, !busy_app, !map_map, Nat.add_assoc. Qed.

Theorem written_step : forall s st p bs w len n,
  Inv s -> Single (s_ob s) -> CtlShape (ob_ctl (s_ob s)) ->
  next_step (s_ob s) = Some st -> prepare_step s st = PWrite p bs w len ->
  Single (s_ob (fst (set_written s p (w + n) len))) /\ CtlShape (ob_ctl (s_ob (fst (set_written s p (w + n) len)))).
Proof.
  intros s st p bs w len n I Hs Hc Hn Hp.
  destruct (nodup_ids _ (oi_nodup _ (inv_ob _ I))) as [Nret Nrel].
  destruct (write_focus s st p bs w len (conj Nret (conj Nrel (conj Hc Hs))) Hn Hp) as [pre [post [_ [E1 [_ [Qpre [Qpost _]]]]]]].
  split.
  - assert (Q : forall l, Forall quiet l -> busy (map fst l) = 0%nat) by (intros l H; apply busy_none, Forall_map, H).
    unfold Single. rewrite nip_items, (E1 (w + n)), map_app, busy_app. cbn [map fst]. rewrite busy_cons, (Q _ Qpre), (Q _ Qpost).
    destruct (is_in_progress _); lia.
  - destruct (prepare_write _ _ _ _ _ _ Hp) as [-> _]. rewrite set_written_put.
    destruct st as [a s0|pid rc s0|pid off l0 s0]; cbn [pkt_of put with_rel with_ret ob_ctl]; try exact Hc.
    destruct (ctl_step_head _ _ _ Hc Hn) as [t Et]. rewrite Et in *. cbn [update_first ce_act]. rewrite caction_eqb_same.
    cbn [fst with_ctl ob_ctl]. split; [apply sws_not_sent|exact (proj2 Hc)].
Qed.

Definition WInv (s : session) : Prop :=
  Inv s /\ FrameInv (s_ob s) /\ Single (s_ob s) /\ CtlShape (ob_ctl (s_ob s)).

Lemma calm_keeps : forall o o', calm o o' -> Single o -> CtlShape (ob_ctl o) -> Single o' /\ CtlShape (ob_ctl o').
Proof. intros o o' [H1 H2] Hs Hc. unfold Single in *. split; [lia|auto]. Qed.

Theorem shape_step : forall s l s', sstep s l s' -> Inv s -> Single (s_ob s) -> CtlShape (ob_ctl (s_ob s)) ->
  Single (s_ob s') /\ CtlShape (ob_ctl (s_ob s')).
Proof.
  intros s l s' H I Hs Hc.
  (* every step but the engine's write is calm *)
  enough (C : calmq is_in_progress (s_ob s) (s_ob s') \/
              exists st p bs w len n, next_step (s_ob s) = Some st /\ prepare_step s st = PWrite p bs w len /\
                                      s_ob s' = s_ob (fst (set_written s p (w + n) len))).
  { destruct C as [C|[st [p [bs [w [len [n [Hn [Hp ->]]]]]]]]]; [exact (calm_keeps _ _ C Hs Hc)|eapply written_step; eassumption]. }
  pose proof idle_ip as Q. clear Hs Hc.
  destruct (sstep_seff _ _ _ H) as [o r rd Ho _ _|p|D dec live s' m M|sp a its now _|p _]; try (left; apply calmq_refl).
  - cbn [set_reader set_rt set_ob s_ob]. destruct Ho as [| | |a o Eq|st p bs w len n Hn Hp|p now].
    + left. apply calmq_refl.
    + left. now apply calmq_arm_replay.
    + left. apply calmq_compact, (inv_ob _ I).
    + left. eapply calmq_queue_control; eassumption.
    + right. now exists st, p, bs, w, len, n.
    + left. now apply calmq_complete_flush.
  - left. exact (calmq_hp _ Q _ _ _ (handle_packet_eff _ _ _ _ (surjective_pairing _)) I).
  - left. exact (calmq_mid _ Q _ _ _ _ _ _ _ M I).
  - left. destruct sp; [apply calmq_refl|]. split; [cbn; lia|intros _; exact Logic.I].
Qed.

Theorem WInv_step : forall s l s', sstep s l s' -> WInv s -> WInv s'.
Proof.
  intros s l s' H [I [F [Hs Hc]]]. destruct (shape_step s l s' H I Hs Hc) as [Hs' Hc'].
  refine (conj _ (conj _ (conj Hs' Hc'))).
  - eapply Inv_step; eassumption.
  - eapply FrameInv_step; eassumption.
Qed.
