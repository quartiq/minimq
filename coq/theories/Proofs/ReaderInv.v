(* ReaderInv.v — the packet reader never holds more than the packet it is assembling: while the length is unknown
   it asks for one byte at a time, so when the probe learns the length the buffer ends exactly with the byte that
   terminates the remaining-length field; afterwards the window is what is missing.  Hence a completed packet is
   exactly the first `pl` bytes it was fed (`Behaving.available_exact`) — the basis of "inbound framing does not
   depend on read fragmentation" at the level of the machine (Framing.v). *)
From Coq Require Import List NArith Lia.
From Coq Require Import ZifyN.
From Minimq Require Import Bytes Varint Reader Util Chunking.
Import ListNotations.
Local Open Scope N_scope.

Definition cont (b : N) : Prop := 128 <= b.

(* every byte of the length field read so far, except possibly the last one, has its continuation bit set *)
Definition HdrOk (d : bytes) : Prop := Forall cont (removelast (dropN 1 d)).

Definition ROK (r : reader) : Prop :=
  match rplen r with
  | Some pl => read_bytes r <= pl /\ probe_len (takeN 4 (dropN 1 (rdata r))) = Some pl
  | None => HdrOk (rdata r)
  end.

Lemma ROK_reset : forall r, ROK (reader_reset r).
Proof. intros r. unfold ROK, reader_reset, HdrOk. cbn. constructor. Qed.

Lemma probe_go_cont : forall l idx cnt acc, Forall cont l -> probe_go idx cnt acc l = None.
Proof.
  induction l as [|b t IH]; intros idx cnt acc H; destruct cnt; cbn [probe_go]; try reflexivity.
  inversion H as [|? ? Hb Ht]; subst. unfold cont in Hb.
  destruct (N.ltb_spec b 128); [lia|]. now apply IH.
Qed.

Lemma probe_go_hdr : forall l idx cnt acc, Forall cont (removelast l) -> (length l <= cnt)%nat ->
  match probe_go idx cnt acc l with Some p => 1 + idx + lenN l <= p | None => Forall cont l end.
Proof.
  induction l as [|b t IH]; intros idx cnt acc H Hl; [destruct cnt; constructor|].
  destruct cnt as [|c]; cbn [length] in Hl; [lia|]. cbn [probe_go]. rewrite lenN_cons.
  destruct t as [|x u]; [rewrite lenN_nil; destruct (N.ltb_spec b 128); [lia|destruct c; now constructor]|].
  change (removelast (b :: x :: u)) with (b :: removelast (x :: u)) in H. inversion H as [|? ? Hb Ht]; subst.
  unfold cont in Hb. destruct (N.ltb_spec b 128); [lia|].
  specialize (IH (idx + 1) c (acc + b mod 128 * 2 ^ (idx * 7)) Ht ltac:(lia)).
  destruct (probe_go _ _ _ _); [lia|now constructor].
Qed.

Lemma probe_go_ext : forall l m idx cnt acc p, probe_go idx cnt acc l = Some p -> probe_go idx cnt acc (l ++ m) = Some p.
Proof.
  induction l as [|b t IH]; intros m idx cnt acc p H; destruct cnt; cbn [probe_go app] in *; try discriminate.
  destruct (b <? 128); [exact H|]. now apply IH.
Qed.

Lemma takeN_dropN_app : forall (a d : bytes) n k, exists x, takeN n (dropN k (a ++ d)) = takeN n (dropN k a) ++ x.
Proof.
  intros a d n k. destruct (N.le_gt_cases k (lenN a)) as [K|K].
  - rewrite dropN_app_le by exact K. destruct (N.le_gt_cases (lenN (dropN k a)) n) as [L|L].
    + rewrite takeN_app_ge, (takeN_all (dropN k a)) by exact L. eexists. reflexivity.
    + rewrite takeN_app_le by lia. exists []. now rewrite app_nil_r.
  - rewrite (dropN_all a) by lia. rewrite (takeN_all []) by (rewrite lenN_nil; lia). eexists. reflexivity.
Qed.

Lemma probe_len_ext : forall a d p, probe_len (takeN 4 (dropN 1 a)) = Some p -> probe_len (takeN 4 (dropN 1 (a ++ d))) = Some p.
Proof. intros a d p H. destruct (takeN_dropN_app a d 4 1) as [x E]. rewrite E. unfold probe_len in *. now apply probe_go_ext. Qed.

(* invariant of the fill loop at its head *)
Definition RInv (r : reader) : Prop := ROK r /\ (rplen r = None -> read_bytes r <= 5).

Lemma RInv_reset : forall r, RInv (reader_reset r).
Proof. intros r. split; [apply ROK_reset|]. intros _. unfold read_bytes, reader_reset. cbn. lia. Qed.

Lemma probe_hdr : forall d, HdrOk d -> lenN d <= 5 ->
  match probe_len (takeN 4 (dropN 1 d)) with Some p => lenN d <= p | None => Forall cont (dropN 1 d) end.
Proof.
  intros d Hok H5. unfold HdrOk in Hok. set (l := dropN 1 d) in *.
  assert (Hl : lenN l = lenN d - 1) by apply lenN_dropN. rewrite (takeN_all l) by lia. unfold probe_len.
  pose proof (probe_go_hdr l 0 4 0 Hok ltac:(rewrite lenN_length in Hl; lia)) as P.
  destruct (probe_go 0 4 0 l); [lia|exact P].
Qed.

Lemma receive_buffer_RInv : forall r, RInv r -> RInv (fst (receive_buffer r)).
Proof.
  intros r Hi. rewrite receive_buffer_eq. cbn [fst]. unfold probed.
  destruct (rplen r) as [pl|] eqn:Ep; [rewrite <- Ep, with_plen_id; exact Hi|].
  destruct (N.leb_spec (read_bytes r) 1) as [|L1]; [rewrite <- Ep, with_plen_id; exact Hi|].
  destruct (probe_len _) as [p|] eqn:Epl; [|rewrite <- Ep, with_plen_id; exact Hi].
  destruct Hi as [Hok H5]. unfold ROK in Hok. rewrite Ep in Hok. pose proof (probe_hdr _ Hok (H5 Ep)) as P. rewrite Epl in P.
  split; [split; [exact P|exact Epl]|discriminate].
Qed.

Lemma receive_buffer_again : forall r r' x, receive_buffer r = (r', x) -> receive_buffer r' = (r', x).
Proof.
  intros r r' x H. rewrite receive_buffer_eq in H. injection H as <- <-.
  assert (E : probed (with_plen r (probed r)) = probed r).
  { unfold probed at 1. cbn [with_plen rplen]. destruct (probed r) eqn:E; [reflexivity|].
    unfold probed in E. destruct (rplen r); [discriminate|exact E]. }
  rewrite receive_buffer_eq, E. reflexivity.
Qed.

Lemma Forall_removelast : forall {A} (P : A -> Prop) l, Forall P l -> Forall P (removelast l).
Proof. intros A P l H. induction H as [|x [|y t] Hx Ht IH]; cbn [removelast]; constructor; assumption. Qed.

Lemma window_RInv : forall r r' win, RInv r -> receive_buffer r = (r', Some win) ->
  rdata r' = rdata r /\ rcap r' = rcap r /\ RInv r' /\ forall d, lenN d <= win -> RInv (commit r' d).
Proof.
  intros r r' win Hi Er. pose proof (receive_buffer_RInv r Hi) as Hi'. rewrite Er in Hi'. cbn [fst] in Hi'.
  rewrite receive_buffer_eq in Er. injection Er as <- Ew.
  split; [reflexivity|]. split; [reflexivity|]. split; [exact Hi'|]. intros d Hd.
  destruct Hi' as [Hok H5]. unfold RInv, ROK, commit, read_bytes in *. cbn [rplen rdata with_plen] in *.
  destruct (probed r) as [pl|] eqn:Ep.
  - destruct (pl <=? rcap r); [|discriminate]. injection Ew as <-. destruct Hok.
    split; [split; [rewrite lenN_app; lia|now apply probe_len_ext]|discriminate].
  - destruct (_ || _) eqn:B; [discriminate|]. injection Ew as <-. apply orb_false_iff in B as [B _]. apply N.leb_gt in B.
    split; [|intros _; rewrite lenN_app; lia]. unfold HdrOk.
    (* no length yet, so every byte of the field continues; at most one byte is added behind them *)
    assert (Hc : Forall cont (dropN 1 (rdata r))).
    { unfold probed, read_bytes in Ep. destruct (rplen r); [discriminate|]. pose proof (probe_hdr _ Hok (H5 eq_refl)) as P.
      revert Ep. destruct (N.leb_spec (lenN (rdata r)) 1); [intros _|intros Ep; now rewrite Ep in P].
      rewrite (lenN_zero_nil (dropN 1 (rdata r))) by (rewrite lenN_dropN; lia). constructor. }
    destruct d as [|x [|y u]]; [rewrite app_nil_r; now apply Forall_removelast| |rewrite !lenN_cons in Hd; lia].
    destruct (rdata r) as [|h tl]; [cbn; constructor|].
    rewrite dropN_app_le by (rewrite lenN_cons; lia). now rewrite removelast_last.
Qed.
