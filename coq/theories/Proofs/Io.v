(* Io.v — the I/O primitives of the machine seen from outside.  `io_write`, `io_flush`, `io_read` (and the broker
   emulation they feed) change the script, the log, the clock, the inbound queue, the broker's buffer and the wire;
   they never touch the session, the handle, or the ghost flags (`io_frame`).  On a transport whose script is exhausted
   (`w_script w = []`: every write accepts everything, every flush succeeds) write and flush are given as equations.
   Also what surrounds an operation: `feed` and the logging of Run.v (`logged_op`), `mark_partial` of Machine.v. *)
From Coq Require Import List NArith Lia String.
From Minimq Require Import Bytes Show Machine Run Util.
Import ListNotations.
Local Open Scope N_scope.

Record io_frame (w w' : world) : Prop := {
  fr_sess : w_sess w' = w_sess w;       fr_conn : w_conn w' = w_conn w;
  fr_live : w_live w' = w_live w;       fr_event : w_event w' = w_event w;
  fr_broker : w_broker w' = w_broker w; fr_handles : w_handles w' = w_handles w;
  fr_envok : w_envok w' = w_envok w;    fr_poison : w_poison w' = w_poison w;
  fr_drained : w_drained w' = w_drained w }.

Lemma io_frame_refl : forall w, io_frame w w.
Proof. now split. Qed.
Lemma io_frame_trans : forall a b c, io_frame a b -> io_frame b c -> io_frame a c.
Proof. intros a b c [] []. split; congruence. Qed.

Lemma upd_sess_id : forall w, upd_sess w (w_sess w) = w.
Proof. intros w. destruct w; reflexivity. Qed.

Lemma broker_feed_frame : forall w a, io_frame w (broker_feed w a).
Proof.
  intros. unfold broker_feed. destruct (N.eqb (w_broker w) 0); [apply io_frame_refl|].
  destruct (broker_split _ _ _ _) as [[|] rest]; now split.
Qed.

Lemma broker_feed_other : forall w a,
  w_script (broker_feed w a) = w_script w /\ w_now (broker_feed w a) = w_now w /\ w_wire (broker_feed w a) = w_wire w /\
  w_waits (broker_feed w a) = w_waits w /\ w_log (broker_feed w a) = w_log w.
Proof.
  intros. unfold broker_feed. destruct (N.eqb (w_broker w) 0); [now repeat split|].
  destruct (broker_split _ _ _ _) as [[|] rest]; now repeat split.
Qed.

Lemma broker_feed_manual : forall w a, w_broker w = 0 -> broker_feed w a = w.
Proof. intros w a H. unfold broker_feed. now rewrite H. Qed.

Lemma io_write_spec : forall bs w w1 r, io_write bs w = (w1, r) ->
  io_frame w w1 /\
  match r with
  | WOk n => w_wire w1 = w_wire w ++ takeN n bs /\ n <= lenN bs
  | _ => w_wire w1 = w_wire w
  end.
Proof.
  intros bs w w1 r. unfold io_write, slow_write.
  destruct (N.eqb_spec (lenN bs) 0). { intros [= <- <-]. repeat split; cbn; [now rewrite takeN_0, app_nil_r|lia]. }
  destruct (next_ev w) as [[k amt] rest].
  assert (F : forall x n, io_frame w x -> w_wire x = w_wire w ++ takeN n bs -> n <= lenN bs ->
            (broker_feed x (takeN n bs), WOk n) = (w1, r) ->
            io_frame w w1 /\ match r with WOk n => w_wire w1 = w_wire w ++ takeN n bs /\ n <= lenN bs | _ => w_wire w1 = w_wire w end).
  { intros x m Hx Hw Hm [= <- <-]. destruct (broker_feed_other x (takeN m bs)) as [_ [_ [-> _]]].
    split; [eapply io_frame_trans; [exact Hx|apply broker_feed_frame]|now split]. }
  destruct (N.eqb k 1); [intros [= <- <-]; now repeat split|].
  destruct (N.eqb k 2); [intros [= <- <-]; repeat split; cbn; [now rewrite takeN_0, app_nil_r|lia]|].
  destruct (N.eqb k 3); [intros [= <- <-]; now repeat split|].
  destruct (N.eqb k 4); [apply F; [now split|reflexivity|lia]|].
  destruct (N.eqb k 5); [apply F; [now split|reflexivity|lia]|].
  apply F; [now split|reflexivity|lia].
Qed.

Lemma io_write_frame : forall bs w, io_frame w (fst (io_write bs w)).
Proof. intros. destruct (io_write bs w) eqn:E. now apply io_write_spec in E. Qed.

Lemma write_all_frame : forall fuel bs w, io_frame w (fst (write_all fuel bs w)).
Proof.
  induction fuel as [|f IH]; intros bs w; cbn [write_all]; [apply io_frame_refl|]. destruct bs as [|b bs']; [apply io_frame_refl|].
  pose proof (io_write_frame (b :: bs') w) as Hw. destruct (io_write (b :: bs') w) as [w1 r]. cbn [fst] in Hw.
  destruct r as [n| |]; try exact Hw. destruct (N.eqb n 0); [exact Hw|]. eapply io_frame_trans; [exact Hw|apply IH].
Qed.

Lemma io_flush_frame : forall w, io_frame w (fst (io_flush w)).
Proof.
  intros. unfold io_flush. destruct (next_ev w) as [[k amt] rest].
  destruct (N.eqb k 1); [now split|]. destruct (N.eqb k 3); now split.
Qed.

Lemma io_flush_other : forall w,
  w_wire (fst (io_flush w)) = w_wire w /\ w_now (fst (io_flush w)) = w_now w /\ w_inq (fst (io_flush w)) = w_inq w /\
  w_txbuf (fst (io_flush w)) = w_txbuf w /\ w_last_arrival (fst (io_flush w)) = w_last_arrival w /\
  w_waits (fst (io_flush w)) = w_waits w.
Proof.
  intros. unfold io_flush. destruct (next_ev w) as [[k amt] rest].
  destruct (N.eqb k 1); [now repeat split|]. destruct (N.eqb k 3); now repeat split.
Qed.

Definition read_keeps (w w' : world) : Prop :=
  io_frame w w' /\ w_wire w' = w_wire w /\ w_txbuf w' = w_txbuf w /\ w_last_arrival w' = w_last_arrival w.

Lemma deliver_keeps : forall win amt w, read_keeps w (fst (deliver win amt w)).
Proof. intros. unfold deliver. destruct (avail_split _ _). now repeat split. Qed.

Lemma io_read_keeps : forall win dl w, read_keeps w (fst (io_read win dl w)).
Proof.
  intros. unfold io_read.
  assert (D : forall x amt, read_keeps w x -> read_keeps w (fst (deliver win amt x))).
  { intros x amt [Hf [H1 [H2 H3]]]. destruct (deliver_keeps win amt x) as [Gf [G1 [G2 G3]]].
    split; [eapply io_frame_trans; eassumption|]. repeat split; congruence. }
  destruct (N.eqb win 0); [now repeat split|]. destruct (next_ev w) as [[k amt] rest].
  destruct (N.eqb k 1); [now repeat split|]. destruct (N.eqb k 2); [now repeat split|].
  destruct (N.eqb k 3); [now repeat split|].
  destruct (avail_split (w_now w) (w_inq w)) as [[|a av] later]; [|apply D; now repeat split].
  destruct (if MAX_WAITS <=? w_waits w then None else _) as [t|]; [|now repeat split].
  destruct (avail_split t _) as [[|a av] l1]; [now repeat split|apply D; now repeat split].
Qed.

Lemma io_read_frame : forall win dl w, io_frame w (fst (io_read win dl w)).
Proof. intros. apply io_read_keeps. Qed.

Lemma io_read_sess : forall win d w, w_sess (fst (io_read win d w)) = w_sess w /\ w_envok (fst (io_read win d w)) = w_envok w.
Proof. intros. split; [apply fr_sess | apply fr_envok]; apply io_read_frame. Qed.

Lemma deliver_len : forall win amt w w1 d, deliver win amt w = (w1, RData d) -> lenN d <= win.
Proof.
  intros win amt w w1 d H. unfold deliver in H. destruct (avail_split (w_now w) (w_inq w)) as [av later].
  inversion H; subst. rewrite lenN_takeN. lia.
Qed.

Lemma io_read_len : forall win dl w w1 d, io_read win dl w = (w1, RData d) -> lenN d <= win.
Proof.
  intros win dl w w1 d H. unfold io_read in H. destruct (N.eqb win 0); [inversion H; subst; rewrite lenN_nil; lia|].
  destruct (next_ev w) as [[k amt] rest].
  destruct (N.eqb k 1); [discriminate|]. destruct (N.eqb k 2); [inversion H; subst; rewrite lenN_nil; lia|].
  destruct (N.eqb k 3); [discriminate|].
  destruct (avail_split (w_now w) (w_inq w)) as [av later]. destruct av as [|a0 av'].
  - match type of H with (match ?t with _ => _ end) = _ => destruct t as [tt|] end; [|discriminate].
    match type of H with (let '(_, _) := ?x in _) = _ => destruct x as [av1 l1] end.
    destruct av1; [discriminate|]. eapply deliver_len; exact H.
  - eapply deliver_len; exact H.
Qed.

Lemma feed_frame : forall w d bs, io_frame w (feed w d bs) /\ w_wire (feed w d bs) = w_wire w.
Proof. intros. unfold feed. destruct bs; now repeat split. Qed.

Lemma fold_feed_frame : forall chunks w, let w' := fold_left (fun w c => feed w (fst c) (snd c)) chunks w in
  io_frame w w' /\ w_wire w' = w_wire w.
Proof.
  induction chunks as [|c t IH]; intros w; cbn [fold_left]; [split; [apply io_frame_refl|reflexivity]|].
  destruct (IH (feed w (fst c) (snd c))) as [F W]. destruct (feed_frame w (fst c) (snd c)) as [F0 W0].
  split; [exact (io_frame_trans _ _ _ F0 F)|congruence].
Qed.

Lemma mark_partial_cases : forall b a l, mark_partial b a l = a \/ mark_partial b a l = upd_poison a true.
Proof. intros. unfold mark_partial. destruct (_ && _); auto. Qed.

(* Run.v `run_action` logs an operation's result and records its handle; `g` is a projection neither touches *)
Lemma logged_op : forall {A B} (g : world -> B), (forall x l, g (upd_log x l) = g x) ->
  forall (f : world -> world * outcome A) (sh : A -> text) (k : world -> outcome A -> world),
  (forall x o, g (k x o) = g x) ->
  forall w, g (let '(w1, o) := f w in upd_log (k w1 o) (show_outcome sh o)) = g (fst (f w)).
Proof. intros A B g Hg f sh k Hk w. destruct (f w) as [w1 o]. cbn [fst]. now rewrite Hg, Hk. Qed.

(* 1000000000 is the amount `next_ev` (Machine.v) hands out once the script is exhausted; the bounds `<= 1000000000`
   below and in Behaving.v are there only so that one write or read takes all it is offered (ConnectOk.v: `BIG`) *)
Lemma next_ev_nil : forall w, w_script w = [] -> next_ev w = ((0, 1000000000), []).
Proof. intros w H. unfold next_ev. now rewrite H. Qed.

Lemma io_write_nil : forall bs w, w_script w = [] -> bs <> [] -> lenN bs <= 1000000000 ->
  io_write bs w =
  (broker_feed (upd_wire (upd_log (upd_script w [])
     ((s2t "w "%string ++ show_N (lenN bs) ++ s2t " "%string) ++ show_N (lenN bs) ++ s2t " "%string ++ hex bs))
     (w_wire w ++ bs)) bs,
   WOk (lenN bs)).
Proof.
  intros bs w Hs Hn Hl. unfold io_write. rewrite (next_ev_nil w Hs).
  destruct (N.eqb_spec (lenN bs) 0) as [E|_]; [destruct bs; [congruence|rewrite lenN_cons in E; lia]|].
  cbv iota beta zeta. change (N.eqb 0 1) with false. change (N.eqb 0 2) with false. change (N.eqb 0 3) with false.
  change (N.eqb 0 4) with false. change (N.eqb 0 5) with false. cbv iota.
  change (N.max 1000000000 1) with 1000000000. rewrite N.min_r by exact Hl. now rewrite takeN_all by apply N.le_refl.
Qed.

Lemma io_write_nil_other : forall bs w, w_script w = [] -> bs <> [] -> lenN bs <= 1000000000 ->
  snd (io_write bs w) = WOk (lenN bs) /\ w_script (fst (io_write bs w)) = [] /\ w_now (fst (io_write bs w)) = w_now w /\
  w_wire (fst (io_write bs w)) = w_wire w ++ bs.
Proof.
  intros bs w Hs Hn Hl. rewrite (io_write_nil bs w Hs Hn Hl). cbn [fst snd].
  match goal with |- context [broker_feed ?x bs] => destruct (broker_feed_other x bs) as [-> [-> [-> _]]] end. now repeat split.
Qed.

Lemma io_flush_nil : forall w, w_script w = [] -> io_flush w = (upd_log (upd_script w []) (s2t "f ok"%string), FlOk).
Proof. intros w Hs. unfold io_flush. now rewrite (next_ev_nil w Hs). Qed.
