(* CfgFrame.v — the configuration of a session never changes: no step of the session LTS touches it, hence no operation of the machine. *)
From Coq Require Import List NArith.
From Minimq Require Import Core Machine Lts Refine.
Import ListNotations.
Local Open Scope N_scope.

Lemma sstep_cfg : forall s l s', sstep s l s' -> s_cfg s' = s_cfg s.
Proof.
  intros s l s' H. destruct (sstep_frame _ _ _ H) as [[E _]|[sp [a [its [now [_ [_ ->]]]]]]]; [exact E | now destruct sp].
Qed.

Lemma wq_cfg : forall w w', wq w w' -> s_cfg (w_sess w') = s_cfg (w_sess w).
Proof.
  intros w w' H. apply (wq_closed (fun s => s_cfg s = s_cfg (w_sess w))) with (2 := H); [|reflexivity].
  intros s l s' St E. now rewrite (sstep_cfg _ _ _ St).
Qed.

Theorem op_publish_cfg : forall fuel r w, s_cfg (w_sess (fst (op_publish fuel r w))) = s_cfg (w_sess w).
Proof. intros. apply wq_cfg, op_publish_wq. Qed.
Theorem op_poll_cfg : forall fuel w, s_cfg (w_sess (fst (op_poll fuel w))) = s_cfg (w_sess w).
Proof. intros. apply wq_cfg, op_poll_wq. Qed.
Theorem op_subscribe_cfg : forall fuel t ps w, s_cfg (w_sess (fst (op_subscribe fuel t ps w))) = s_cfg (w_sess w).
Proof. intros. apply wq_cfg, op_subscribe_wq. Qed.
Theorem op_unsubscribe_cfg : forall fuel t ps w, s_cfg (w_sess (fst (op_unsubscribe fuel t ps w))) = s_cfg (w_sess w).
Proof. intros. apply wq_cfg, op_unsubscribe_wq. Qed.
