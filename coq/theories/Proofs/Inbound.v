(* Inbound.v — C04: what handling an inbound PUBLISH / PUBREL does to the session: which acknowledgement is
   queued (at the tail of the control queue: arrival order), whether the message is delivered, how the set of
   pending inbound QoS 2 identifiers evolves, and that nothing but a PUBREL for it or a fresh broker session
   removes an identifier from that set. *)
From Coq Require Import List NArith Lia Permutation.
From Minimq Require Import Bytes Ser De Arena Core Effects Shapes Engine Lts.
Import ListNotations.
Local Open Scope N_scope.

Definition fresh_ctl (a : caction) : centry := {| ce_act := a; ce_st := SWrite 0 |}.

Definition ack_appended (s s' : session) (a : caction) : Prop :=
  ob_ctl (s_ob s') = ob_ctl (s_ob s) ++ [fresh_ctl a] /\ ob_ret (s_ob s') = ob_ret (s_ob s) /\
  ob_rel (s_ob s') = ob_rel (s_ob s) /\ ob_buf (s_ob s') = ob_buf (s_ob s).

Definition refused (s : session) (a : caction) (hr : hres) : Prop :=
  (hr = HErr EInflightExhausted /\ MAX_PENDING_CONTROL <= glen (ob_ctl (s_ob s))) \/
  (exists e, hr = HErr e /\ check_control_size (rt_mps (s_rt s)) a = Some e).

Lemma ack_case : forall s a d s' hr, queue_ctl_checked s a d = (s', hr) ->
  (hr = HOk d /\ ack_appended s s' a /\ s_srv s' = s_srv s) \/ (s' = s /\ refused s a hr).
Proof.
  intros s a d s' hr H. destruct (queue_ctl_checked_spec s a d) as [[o [_ [Eo E]]]|[e [E He]]]; rewrite E in H; injection H as <- <-.
  - left. apply queue_control_inv in Eo. destruct Eo as [-> _]. repeat split.
  - right. split; [reflexivity|]. destruct He as [Hc|[-> Hq]]; [right; now exists e|left; split; [reflexivity|]].
    unfold queue_control in Hq. destruct (N.leb_spec MAX_PENDING_CONTROL (glen (ob_ctl (s_ob s)))); [assumption|discriminate].
Qed.

Lemma refused_err : forall s a hr, refused s a hr -> exists e, hr = HErr e.
Proof. intros s a hr [[-> _]|[e [-> _]]]; eauto. Qed.

Theorem qos0_delivered : forall s t pid r d ps pl, handle_packet s (RPublish t pid Q0 r d ps pl) = (s, HOk true).
Proof. reflexivity. Qed.

Theorem qos1_acked_then_delivered : forall s t id r d ps pl s' hr,
  handle_packet s (RPublish t (Some id) Q1 r d ps pl) = (s', hr) ->
  let rc := if mem_id id (s_srv s) then 145 else 0 in
  (hr = HOk true /\ ack_appended s s' (CPubAck id rc) /\ s_srv s' = s_srv s) \/
  (s' = s /\ refused s (CPubAck id rc) hr).
Proof. intros s t id r d ps pl s' hr H rc. exact (ack_case _ _ _ _ _ H). Qed.

Lemma qos2_cases : forall s t id r d ps pl s' hr,
  handle_packet s (RPublish t (Some id) Q2 r d ps pl) = (s', hr) ->
  let dup := mem_id id (s_srv s) in
  let full := MAX_INBOUND_QOS2 <=? glen (s_srv s) in
  let reason := if dup then 0 else if full then 147 else 0 in
  (hr = HOk (negb (dup || full)) /\ ack_appended s s' (CPubRec id reason) /\
   s_srv s' = if dup || full then s_srv s else s_srv s ++ [id]) \/
  (s' = s /\ refused s (CPubRec id reason) hr).
Proof.
  intros s t id r d ps pl s' hr H dup full reason. cbn [handle_packet] in H. fold dup full reason in H.
  assert (Ed : negb (dup || negb (rc_success reason)) = negb (dup || full)) by (unfold reason; now destruct dup, full).
  rewrite Ed in H. destruct (queue_ctl_checked s (CPubRec id reason) (negb (dup || full))) as [s1 h1] eqn:E.
  destruct (ack_case _ _ _ _ _ E) as [[-> [Ha Hs]]|[-> Hr]].
  - left. destruct (dup || full); inversion H; subst; repeat split; try assumption; apply Ha.
  - right. destruct (refused_err _ _ _ Hr) as [e ->]. inversion H; subst. now split.
Qed.

Theorem qos2_first_arrival : forall s t id r d ps pl s' hr,
  handle_packet s (RPublish t (Some id) Q2 r d ps pl) = (s', hr) ->
  mem_id id (s_srv s) = false -> glen (s_srv s) < MAX_INBOUND_QOS2 ->
  (hr = HOk true /\ ack_appended s s' (CPubRec id 0) /\ s_srv s' = s_srv s ++ [id]) \/
  (s' = s /\ refused s (CPubRec id 0) hr).
Proof.
  intros s t id r d ps pl s' hr H Hm Hl. apply qos2_cases in H. rewrite Hm in H.
  destruct (N.leb_spec MAX_INBOUND_QOS2 (glen (s_srv s))); [lia|]. exact H.
Qed.

Lemma qos2_not_delivered : forall s t id r d ps pl s' hr reason,
  handle_packet s (RPublish t (Some id) Q2 r d ps pl) = (s', hr) ->
  mem_id id (s_srv s) || (MAX_INBOUND_QOS2 <=? glen (s_srv s)) = true ->
  reason = (if mem_id id (s_srv s) then 0 else 147) ->
  s_srv s' = s_srv s /\ hr <> HOk true /\
  ((hr = HOk false /\ ack_appended s s' (CPubRec id reason)) \/ (s' = s /\ refused s (CPubRec id reason) hr)).
Proof.
  intros s t id r d ps pl s' hr reason H Hb ->. apply qos2_cases in H. rewrite Hb in H.
  assert (Er : (if mem_id id (s_srv s) then 0 else if MAX_INBOUND_QOS2 <=? glen (s_srv s) then 147 else 0)
               = if mem_id id (s_srv s) then 0 else 147).
  { destruct (mem_id id (s_srv s)); [reflexivity|]. cbn [orb] in Hb. now rewrite Hb. }
  rewrite Er in H. destruct H as [[-> [Ha Hs]]|[-> Hr]].
  - split; [exact Hs|]. split; [discriminate|]. left. now split.
  - split; [reflexivity|]. split; [destruct (refused_err _ _ _ Hr) as [e ->]; discriminate|]. right. now split.
Qed.

Theorem qos2_duplicate : forall s t id r d ps pl s' hr,
  handle_packet s (RPublish t (Some id) Q2 r d ps pl) = (s', hr) ->
  mem_id id (s_srv s) = true ->
  s_srv s' = s_srv s /\ hr <> HOk true /\
  ((hr = HOk false /\ ack_appended s s' (CPubRec id 0)) \/ (s' = s /\ refused s (CPubRec id 0) hr)).
Proof. intros s t id r d ps pl s' hr H Hm. eapply qos2_not_delivered; [exact H|now rewrite Hm|now rewrite Hm]. Qed.

(* a broker that exceeds the advertised Receive Maximum; 147 = 0x93, Receive Maximum exceeded *)
Theorem qos2_over_receive_maximum : forall s t id r d ps pl s' hr,
  handle_packet s (RPublish t (Some id) Q2 r d ps pl) = (s', hr) ->
  mem_id id (s_srv s) = false -> MAX_INBOUND_QOS2 <= glen (s_srv s) ->
  s_srv s' = s_srv s /\ hr <> HOk true /\
  ((hr = HOk false /\ ack_appended s s' (CPubRec id 147)) \/ (s' = s /\ refused s (CPubRec id 147) hr)).
Proof.
  intros s t id r d ps pl s' hr H Hm Hl. eapply qos2_not_delivered; [exact H| |now rewrite Hm].
  rewrite Hm. now apply N.leb_le.
Qed.

(* a PUBLISH with QoS > 0 and no identifier cannot be decoded as such; handled defensively *)
Theorem qos_without_id : forall s t q r d ps pl, q <> Q0 ->
  handle_packet s (RPublish t None q r d ps pl) = (s, HErr EInvalidPacket).
Proof. intros s t q r d ps pl Hq. destruct q; [contradiction| |]; reflexivity. Qed.

Lemma swap_remove_id_some : forall id l, mem_id id l = true -> exists l', swap_remove_id id l = Some l'.
Proof.
  induction l as [|x t IH]; intros H; cbn [mem_id existsb] in H; [discriminate|].
  cbn [swap_remove_id]. rewrite N.eqb_sym in H. destruct (N.eqb x id) eqn:E.
  - destruct (rev t); eexists; reflexivity.
  - cbn [orb] in H. destruct (IH H) as [l' ->]. eexists; reflexivity.
Qed.

Lemma swap_remove_id_none : forall id l, mem_id id l = false -> swap_remove_id id l = None.
Proof.
  induction l as [|x t IH]; intros H; cbn [mem_id existsb] in H; [reflexivity|].
  cbn [swap_remove_id]. rewrite N.eqb_sym in H. destruct (N.eqb x id) eqn:E; [discriminate|].
  cbn [orb] in H. now rewrite (IH H).
Qed.

Lemma swap_remove_id_perm : forall id l l', swap_remove_id id l = Some l' -> Permutation l (id :: l').
Proof.
  induction l as [|y t IH]; intros l' H; cbn [swap_remove_id] in H; [discriminate|].
  destruct (N.eqb_spec y id) as [->|_].
  - apply perm_skip. pose proof (Permutation_rev t) as P. destruct (rev t) as [|lst rinit]; injection H as <-; [exact P|].
    rewrite P. apply perm_skip, Permutation_rev.
  - destruct (swap_remove_id id t) as [t'|]; [|discriminate]. injection H as <-. rewrite (IH t' eq_refl). apply perm_swap.
Qed.

Lemma swap_remove_id_in : forall id l l' x, swap_remove_id id l = Some l' -> x <> id -> (In x l <-> In x l').
Proof.
  intros id l l' x H Hx. apply swap_remove_id_perm in H. split; intros Hi.
  - destruct (Permutation_in x H Hi); [congruence|assumption].
  - apply (Permutation_in x (Permutation_sym H)). now right.
Qed.

Lemma swap_remove_id_nodup : forall id l l', NoDup l -> swap_remove_id id l = Some l' -> NoDup l' /\ ~ In id l'.
Proof.
  intros id l l' Hn H. apply (Permutation_NoDup (swap_remove_id_perm _ _ _ H)) in Hn. inversion Hn; now split.
Qed.

Theorem pubrel_pending : forall s id rc s' hr,
  handle_packet s (RPubRel id rc) = (s', hr) -> mem_id id (s_srv s) = true ->
  exists l, swap_remove_id id (s_srv s) = Some l /\ s_srv s' = l /\
    ((hr = HOk false /\ ack_appended s s' (CPubComp id 0)) \/
     (s' = set_srv s l /\ refused (set_srv s l) (CPubComp id 0) hr)).
Proof.
  intros s id rc s' hr H Hm. cbn [handle_packet] in H.
  destruct (swap_remove_id_some id (s_srv s) Hm) as [l El]. rewrite El in H. exists l. split; [exact El|].
  destruct (ack_case _ _ _ _ _ H) as [[-> [Ha Hs]]|[-> Hr]]; (split; [assumption||reflexivity|]); [left|right]; now split.
Qed.

(* 146 = 0x92, Packet Identifier Not Found *)
Theorem pubrel_unknown : forall s id rc s' hr,
  handle_packet s (RPubRel id rc) = (s', hr) -> mem_id id (s_srv s) = false ->
  s_srv s' = s_srv s /\
  ((hr = HOk false /\ ack_appended s s' (CPubComp id 146)) \/ (s' = s /\ refused s (CPubComp id 146) hr)).
Proof.
  intros s id rc s' hr H Hm. cbn [handle_packet] in H. rewrite (swap_remove_id_none id _ Hm) in H.
  destruct (ack_case _ _ _ _ _ H) as [[-> [Ha Hs]]|[-> Hr]]; (split; [assumption||reflexivity|]); [left|right]; now split.
Qed.

Theorem pubrel_never_delivers : forall s id rc, snd (handle_packet s (RPubRel id rc)) <> HOk true.
Proof.
  intros s id rc. cbn [handle_packet].
  assert (Q : forall s0 a, snd (queue_ctl_checked s0 a false) <> HOk true).
  { intros s0 a. destruct (queue_ctl_checked_spec s0 a false) as [[o [_ [_ ->]]]|[e [-> _]]]; discriminate. }
  destruct (swap_remove_id id (s_srv s)) as [l|]; apply Q.
Qed.

Definition SrvInv (s : session) : Prop := NoDup (s_srv s).

Lemma mem_id_In : forall id l, mem_id id l = true <-> In id l.
Proof.
  intros id l. unfold mem_id. rewrite existsb_exists. split.
  - intros [x [Hx E]]. apply N.eqb_eq in E. now subst.
  - intros H. exists id. split; [exact H|apply N.eqb_refl].
Qed.

Theorem srv_step : forall s l s', sstep s l s' ->
  srv_change (s_srv s) (s_srv s') \/ (s_srv s' = [] /\ s_sp s' = true).
Proof.
  intros s l s' H. destruct (sstep_seff _ _ _ H) as [o r rd _ _ _|p|D dec live s' m M|[|] a its now _|p _]; try (left; now left).
  - destruct (handle_packet s p) as [s' hr] eqn:E. apply handle_packet_eff in E. left.
    destruct E; try (now left); cbn [fst set_srv s_srv]; [assumption|right; left; eauto].
  - left; left. apply (mid_srv _ _ _ _ _ _ _ M).
  - right. split; reflexivity.
Qed.

Theorem SrvInv_step : forall s l s', sstep s l s' -> SrvInv s -> SrvInv s'.
Proof.
  intros s l s' H I. unfold SrvInv in *. destruct (srv_step s l s' H) as [[E|[[i E]|[i [E [Hm _]]]]]|[E _]]; rewrite ?E.
  - exact I.
  - exact (proj1 (swap_remove_id_nodup i _ _ I E)).
  - apply (Permutation_NoDup (Permutation_cons_append _ i)). constructor; [|exact I]. intros Hi. apply mem_id_In in Hi. congruence.
  - constructor.
Qed.

(* exactly once: every retransmission before the PUBREL or a fresh broker session is a duplicate in the sense of
   qos2_duplicate *)
Theorem pending_until_released : forall s l s' id, sstep s l s' -> In id (s_srv s) ->
  In id (s_srv s') \/
  (exists l0, swap_remove_id id (s_srv s) = Some l0 /\ s_srv s' = l0) \/
  (s_srv s' = [] /\ s_sp s' = true).
Proof.
  intros s l s' id H Hi. destruct (srv_step s l s' H) as [[E|[[i E]|[i [E _]]]]|E]; [| | |now right; right].
  - left. now rewrite E.
  - destruct (N.eq_dec id i) as [->|Hne]; [right; left; now exists (s_srv s')|].
    left. now apply (swap_remove_id_in i _ _ id E Hne).
  - left. rewrite E. apply in_or_app. now left.
Qed.

Theorem released_is_free : forall s id rc, SrvInv s -> mem_id id (s_srv s) = true ->
  mem_id id (s_srv (fst (handle_packet s (RPubRel id rc)))) = false.
Proof.
  intros s id rc I Hm. destruct (handle_packet s (RPubRel id rc)) as [s' hr] eqn:E.
  destruct (pubrel_pending s id rc s' hr E Hm) as [l [El [Es _]]]. cbn [fst]. rewrite Es.
  destruct (mem_id id l) eqn:Em; [|reflexivity]. apply mem_id_In in Em.
  exfalso. exact (proj2 (swap_remove_id_nodup id _ _ I El) Em).
Qed.

(* acknowledgements leave in the order they were queued: the engine starts the FIRST fresh control entry *)
Theorem first_fresh_ack_first : forall l e, find (fun e => matches_priority (ce_st e) false) l = Some e ->
  exists pre post, l = pre ++ e :: post /\ Forall (fun x => is_fresh (ce_st x) = false) pre.
Proof. intros l e H. destruct (find_split _ _ _ H) as [pre [post [E [F _]]]]. now exists pre, post. Qed.
