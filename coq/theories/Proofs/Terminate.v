(* Terminate.v — C16: the engine loops of the machine (drive_packet, flush_outbound) end without exhausting their
   fuel, whatever the transport does: every step that reports progress strictly lowers `work` (Measure.v), the one
   thing that can raise it inside the loop — queuing a PINGREQ — is paid for by a budget that is spent once, and a
   step reporting "nothing done" cannot be selected.  Hence no packet is written for ever or twice, and the number
   of engine steps per call is bounded by work + 5. *)
From Coq Require Import List NArith Lia.
From Minimq Require Import Bytes Ser Reader Arena Core Machine Run.
From Minimq Require Import Util Effects Shapes Step Lts Refine Inv Status Engine WireInv Wire Measure.
Import ListNotations.
Open Scope N_scope.

(* what queuing a PINGREQ may still cost: it is queued only while none is queued or awaited *)
Definition pbudget (s : session) : N :=
  match rt_ping_timeout (s_rt s) with
  | Some _ => 0
  | None => if has_pending_pingreq (s_ob s) then 0 else 5
  end.
Definition M (s : session) : N := work (s_ob s) + pbudget s.

Lemma has_pending_snoc_ping : forall l,
  existsb (fun e => match ce_act e with CPing => negb (sstate_eqb (ce_st e) SSent) | _ => false end)
          (l ++ [{| ce_act := CPing; ce_st := SWrite 0 |}]) = true.
Proof. intros l. rewrite existsb_app. cbn. apply orb_true_r. Qed.

(* queuing the PINGREQ adds its weight, 4, to the work and spends the budget of 5 *)
Lemma ping_M : forall s now, M (fst (maybe_queue_pingreq s now)) <= M s.
Proof.
  intros s now. unfold maybe_queue_pingreq. destruct (should_queue_pingreq s now) eqn:Eq; [|cbn [fst]; lia].
  destruct (check_control_size _ CPing); [cbn [fst]; lia|].
  unfold queue_control. destruct (MAX_PENDING_CONTROL <=? glen (ob_ctl (s_ob s))); cbn [fst]; [lia|].
  unfold should_queue_pingreq in Eq. apply andb_true_iff in Eq. destruct Eq as [Eq Hp]. apply andb_true_iff in Eq. destruct Eq as [Ht _].
  apply negb_true_iff in Hp. unfold M, pbudget, work, work_ctl, has_pending_pingreq in *. cbn [s_ob s_rt set_ob ob_ctl ob_rel ob_ret].
  destruct (rt_ping_timeout (s_rt s)); [discriminate|]. rewrite Hp, has_pending_snoc_ping, map_app, sumN_app.
  change (sumN (map _ [{| ce_act := CPing; ce_st := SWrite 0 |}])) with 4. lia.
Qed.

Lemma prepare_done_sent : forall s st, prepare_step s st = PDone -> step_state st = SSent.
Proof. intros s st H. pose proof (prepare_step_inv s st) as P. rewrite H in P. destruct st; exact P. Qed.

Lemma pending_put : forall o p st', (p = FCtl CPing -> st' <> SSent) ->
  has_pending_pingreq o = true -> has_pending_pingreq (put o p st') = true.
Proof.
  intros o p st' Hp H. destruct p as [a|pid|pid]; try exact H. unfold has_pending_pingreq, put. cbn [ob_ctl with_ctl].
  apply existsb_update_first; [|exact H]. intros x Ex Hx. cbn [ce_act ce_st]. destruct (ce_act x) eqn:Ea; try discriminate.
  assert (a = CPing) by (destruct a; cbn in Ex; congruence). subst a. destruct st'; try reflexivity. now elim Hp.
Qed.

Lemma pending_flushed : forall o p, p <> FCtl CPing -> has_pending_pingreq o = true -> has_pending_pingreq (flushed o p) = true.
Proof.
  intros o p Hp H. assert (Hq : has_pending_pingreq (put o p SSent) = true) by (apply pending_put; [congruence|exact H]).
  destruct p as [a|pid|pid]; try exact Hq. unfold has_pending_pingreq, flushed. cbn [ob_ctl with_ctl].
  apply existsb_filter; [|exact Hq]. intros x Hx. destruct (ce_act x); try discriminate. exact Hx.
Qed.

Lemma pbudget_le : forall s s',
  rt_ping_timeout (s_rt s') <> None \/
  (rt_ping_timeout (s_rt s') = rt_ping_timeout (s_rt s) /\
   (has_pending_pingreq (s_ob s) = true -> has_pending_pingreq (s_ob s') = true)) -> pbudget s' <= pbudget s.
Proof.
  intros s s' [Ht|[Et Hp]]; unfold pbudget; [|rewrite Et].
  - destruct (rt_ping_timeout (s_rt s')); [|contradiction]. destruct (rt_ping_timeout (s_rt s)); [|destruct (has_pending_pingreq (s_ob s))]; lia.
  - destruct (rt_ping_timeout (s_rt s)); [lia|]. destruct (has_pending_pingreq (s_ob s)); [now rewrite Hp|destruct (has_pending_pingreq _)]; lia.
Qed.

Lemma pb_set_written : forall s p x len, pbudget (fst (set_written s p x len)) <= pbudget s.
Proof.
  intros s p x len. apply pbudget_le. right. split.
  - destruct (set_written s p x len) as [s' b] eqn:E. now rewrite (set_written_ob _ _ _ _ _ _ E).
  - rewrite set_written_put. apply pending_put. intros _. apply sws_not_sent.
Qed.

Lemma pb_complete_flush : forall s p now, pbudget (fst (complete_flush s p now)) <= pbudget s.
Proof.
  intros s p now. apply pbudget_le. rewrite complete_flush_put. destruct (complete_flush_shape s p now) as [o ->]. cbn [set_rt s_rt].
  destruct p as [[| | |]| |]; try (right; split; [reflexivity|apply pending_flushed; discriminate]).
  left. discriminate.
Qed.

Lemma step_pbudget : forall st now w w',
  perform_outbound_step st now w = (w', ODone true) -> pbudget (w_sess w') <= pbudget (w_sess w).
Proof.
  intros st now w w' H.
  destruct (perform_cases _ _ _ _ _ H) as [_ [[p [bs [wr [len [n [[_ [_ [_ [_ ->]]]] _]]]]]]|[[p [bs [wr [len [n [[_ [_ [_ [_ ->]]]] _]]]]]]|[p [_ [_ ->]]]]]].
  - apply pb_set_written.
  - eapply N.le_trans; [apply pb_complete_flush|apply pb_set_written].
  - apply pb_complete_flush.
Qed.

Lemma step_M : forall st now w w', WInv (w_sess w) -> next_step (s_ob (w_sess w)) = Some st ->
  perform_outbound_step st now w = (w', ODone true) -> M (w_sess w') < M (w_sess w).
Proof.
  intros st now w w' I Hn H. unfold M.
  pose proof (progress_decreases_work st now w w' I Hn H). pose proof (step_pbudget st now w w' H). lia.
Qed.

Lemma step_never_idle : forall st now w w', next_step (s_ob (w_sess w)) = Some st ->
  perform_outbound_step st now w = (w', ODone false) -> False.
Proof.
  intros st now w w' Hn H. destruct (perform_cases _ _ _ _ _ H) as [Ep _].
  exact (next_step_not_sent _ _ Hn (prepare_done_sent _ _ Ep)).
Qed.

Lemma step_WInv : forall st now w w' r, WInv (w_sess w) -> next_step (s_ob (w_sess w)) = Some st ->
  perform_outbound_step st now w = (w', r) -> WInv (w_sess w').
Proof.
  intros st now w w' r I Hn H. pose proof (perform_outbound_step_wq st now w Hn) as Hwq. rewrite H in Hwq. eapply WInv_wq; [exact Hwq|exact I].
Qed.

Lemma turn_M : forall now w s1 st w2 r,
  WInv (w_sess w) -> maybe_queue_pingreq (w_sess w) now = (s1, None) -> next_step (s_ob s1) = Some st ->
  perform_outbound_step st now (upd_sess w s1) = (w2, r) ->
  match r with ODone _ => M (w_sess w2) < M (w_sess w) /\ WInv (w_sess w2) | OFuel => False | _ => True end.
Proof.
  intros now w s1 st w2 r I Eq En Es.
  pose proof (ping_M (w_sess w) now) as Hp. rewrite Eq in Hp. cbn [fst] in Hp.
  assert (I1 : WInv (w_sess (upd_sess w s1))).
  { cbn [w_sess upd_sess]. replace s1 with (fst (maybe_queue_pingreq (w_sess w) now)) by now rewrite Eq.
    eapply WInv_step; [apply SS_ping|exact I]. }
  destruct r as [[|]|e| | |]; try exact Logic.I.
  - pose proof (step_M st now (upd_sess w s1) w2 I1 En Es) as Hd. cbn [w_sess upd_sess] in Hd. split; [lia|].
    exact (step_WInv _ _ _ _ _ I1 En Es).
  - exfalso. exact (step_never_idle st now (upd_sess w s1) w2 En Es).
  - exact (perform_cases _ _ _ _ _ Es).
Qed.

Theorem flush_outbound_terminates : forall fuel w,
  WInv (w_sess w) -> M (w_sess w) < N.of_nat fuel -> snd (flush_outbound fuel w) <> OFuel.
Proof.
  induction fuel as [|f IH]; intros w I Hm; [cbn in Hm; lia|]. cbn [flush_outbound].
  destruct (maybe_queue_pingreq (w_sess w) (w_now w)) as [s1 [e|]] eqn:Eq; [cbn [snd]; discriminate|].
  cbn [w_sess upd_sess]. destruct (next_step (s_ob s1)) as [st|] eqn:En; [|cbn [snd]; discriminate].
  destruct (perform_outbound_step st (w_now w) (upd_sess w s1)) as [w2 r] eqn:Es.
  pose proof (turn_M _ _ _ _ _ _ I Eq En Es) as T.
  destruct r as [b|e| | |]; cbn [snd]; try discriminate; [|contradiction]. destruct T as [Hd I2]. apply IH; [exact I2|lia].
Qed.

Theorem drive_loop_terminates : forall fuel adv w,
  WInv (w_sess w) -> NA w -> M (w_sess w) < N.of_nat fuel -> snd (drive_loop fuel adv w) <> OFuel.
Proof.
  induction fuel as [|f IH]; intros adv w I Hna Hm; [cbn in Hm; lia|]. cbn [drive_loop].
  destruct (process_received w) as [w1 r1] eqn:Ep.
  destruct (process_received_pres w w1 r1 Ep) as [Pa _]. specialize (Pa Hna). subst w1.
  assert (Er : r1 = ODone None).
  { unfold process_received in Ep. unfold NA in Hna. rewrite Hna in Ep. cbn [negb] in Ep. now inversion Ep. }
  subst r1. unfold NA in Hna. rewrite Hna.
  destruct (service (w_now w) w) as [w2 r2] eqn:Es.
  destruct (service_pres (w_now w) w w2 r2 I Hna Es) as [_ [Na2 _]].
  unfold service in Es. destruct (ping_timed_out _ _); [inversion Es; cbn [snd]; discriminate|].
  destruct (maybe_queue_pingreq (w_sess w) (w_now w)) as [s1 [e|]] eqn:Eq; [inversion Es; cbn [snd]; discriminate|].
  cbn [w_sess upd_sess] in Es. destruct (next_step (s_ob s1)) as [st|] eqn:En.
  - pose proof (turn_M _ _ _ _ _ _ I Eq En Es) as T.
    destruct r2 as [b|e| | |]; cbn [snd]; try discriminate; [|contradiction]. destruct T as [Hd I2].
    destruct (next_step (s_ob (w_sess w2))); [|cbn [snd]; discriminate]. apply IH; [exact I2|exact Na2|lia].
  - inversion Es; subst. cbn [w_sess upd_sess]. rewrite En. cbn [snd]. discriminate.
Qed.

Theorem op_drive_terminates : forall fuel w,
  WInv (w_sess w) -> NAl w -> M (w_sess w) < N.of_nat fuel -> snd (op_drive fuel w) <> OFuel.
Proof.
  intros fuel w I Hn Hm. unfold op_drive. destruct (drive_packet fuel w) as [w1 r] eqn:Ed. unfold drive_packet in Ed.
  destruct (w_live w) eqn:Hl; cbn [negb] in Ed; [|inversion Ed; subst; cbn [snd]; discriminate].
  pose proof (drive_loop_terminates fuel false w I (Hn Hl) Hm) as Ht. rewrite Ed in Ht. cbn [snd] in Ht.
  destruct r as [[| |p]|e| | |]; cbn [snd]; try discriminate. congruence.
Qed.

(* non-vacuity: a resumed connection with a retained publish to replay *)
From Minimq Require Import ConnectOk.
Definition ex_resumed : world := run_action (AConnect []) ex_broken.
Example terminate_example :
  w_live ex_resumed = true /\ work (s_ob (w_sess ex_resumed)) = 13 /\ M (w_sess ex_resumed) < N.of_nat FUEL /\
  packet_available (s_reader (w_sess ex_resumed)) = false /\
  snd (op_drive FUEL ex_resumed) = ODone None /\ work (s_ob (w_sess (fst (op_drive FUEL ex_resumed)))) = 0.
Proof. vm_compute. repeat split; reflexivity. Qed.

(* the measure is bounded by the arena, so FUEL suffices in every reachable world *)
From Minimq Require Import Reconnect Reach ArenaLemmas.

Lemma ctl_bytes_len : forall a, lenN (ctl_bytes a) <= 5.
Proof. intros a. unfold ctl_bytes. destruct (encode_control_packet a) eqn:E; [exact (encode_control_len _ _ _ E)|cbn; lia]. Qed.

Lemma rel_bytes_len : forall pid rc, lenN (rel_bytes pid rc) <= 5.
Proof. intros. unfold rel_bytes. destruct (encode_pubrel pid rc) eqn:E; [exact (enc_ack_len _ _ _ _ _ E)|cbn; lia]. Qed.

Lemma st_weight_le : forall st len, st_weight st len <= 2 + len.
Proof. intros [w| |] len; unfold st_weight; lia. Qed.

Lemma work_queue_le : forall {A} (st : A -> sstate) (bs : A -> bytes) l, (forall x, lenN (bs x) <= 5) ->
  sumN (map (fun e => st_weight (st e) (lenN (bs e))) l) <= 7 * glen l.
Proof. intros A st bs l H. apply sumN_map_le. intros x. pose proof (st_weight_le (st x) (lenN (bs x))). pose proof (H x). lia. Qed.

(* the retained entries lie one after another in the arena, so their lengths add up to at most `used` *)
Lemma work_ret_le : forall es lo used, wf_layout lo es used -> work_ret es + lo <= 2 * glen es + used.
Proof.
  induction es as [|e t IH]; intros lo used H; cbn [wf_layout] in H.
  - cbn. lia.
  - destruct H as [H1 [H2 H3]]. change (work_ret (e :: t)) with (st_weight (re_st e) (re_len e) + work_ret t). cbn [glen].
    specialize (IH _ _ H3). pose proof (st_weight_le (re_st e) (re_len e)). lia.
Qed.

Theorem M_bounded : forall s, Inv s -> M s <= lenN (ob_buf (s_ob s)) + 133.
Proof.
  intros s [[[Hl Hu] Hr Hre Hc _ _] _ _]. unfold M, work, work_ctl, work_rel, pbudget.
  pose proof (work_queue_le ce_st _ (ob_ctl (s_ob s)) (fun e => ctl_bytes_len (ce_act e))).
  pose proof (work_queue_le le_st _ (ob_rel (s_ob s)) (fun e => rel_bytes_len (le_pid e) (le_rc e))).
  pose proof (work_ret_le _ _ _ Hl).
  destruct (rt_ping_timeout (s_rt s)); [|destruct (has_pending_pingreq (s_ob s))]; lia.
Qed.

Theorem reachable_drive_terminates : forall c, cf_tx (c_cfg c) <= 29000 ->
  let w := run_case c in halted w = false -> snd (op_drive FUEL w) <> OFuel.
Proof.
  intros c Hc w Hh. destruct (run_case_good c) as [I [_ Hn]]. fold w in I, Hn.
  destruct Hn as [Hn|Hn]; [congruence|].
  apply op_drive_terminates; [exact I|exact Hn|].
  pose proof (M_bounded (w_sess w) (proj1 I)) as Hb. unfold w in Hb. rewrite reachable_Cap in Hb.
  (* lia takes FUEL as the product it is written as; evaluated it is a unary numeral of 30000 *)
  fold w in Hb. unfold FUEL. lia.
Qed.
