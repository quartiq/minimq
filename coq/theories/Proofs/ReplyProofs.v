(* ReplyProofs.v — C20: the reply helpers address exactly the requester. *)
From Coq Require Import Lia.
From Minimq Require Import Bytes Utf8 Props Ser De Reply CodecProofs.

Definition is_kind (k : pkind) (p : prop) : bool := N.eqb (kind_id (pk p)) (kind_id k).

Lemma first_data_find : forall k ps,
  first_data k (map Some ps) = option_map pdata (find (is_kind k) ps).
Proof.
  intros k ps. induction ps as [|p t IH]; cbn [map first_data find option_map]; [reflexivity|].
  unfold is_kind at 1. destruct (N.eqb (kind_id (pk p)) (kind_id k)); [reflexivity|exact IH].
Qed.

(* the helpers see the FIRST Response Topic and the FIRST Correlation Data, wherever they stand among the properties *)
Theorem inbound_targets : forall ps block,
  encode_all ps = Some block -> forallb prop_wf ps = true -> forallb prop_canon ps = true ->
  response_topic (PEncoded block) = option_map pdata (find (is_kind KResponseTopic) ps) /\
  correlation_data (PEncoded block) = option_map pdata (find (is_kind KCorrelationData) ps).
Proof.
  intros ps block He Hw Hc. unfold response_topic, correlation_data, props_iter.
  rewrite (props_iter_roundtrip ps block He Hw Hc). split; apply first_data_find.
Qed.

Theorem reply_spec : forall inbound user,
  match response_topic inbound with
  | None => reply_with inbound user = None
  | Some t =>
      reply_with inbound user =
      Some {| rp_topic := t;
              rp_props := match correlation_data inbound with
                          | Some c => PWithCorr (mkprop KCorrelationData 0 c []) user
                          | None => PSlice user
                          end |}
  end.
Proof.
  intros inbound user. unfold reply_with, reply. destruct (response_topic inbound) as [t|]; [|reflexivity].
  destruct (correlation_data inbound); reflexivity.
Qed.

Lemma reply_props_iter : forall c user,
  props_iter (PWithCorr (mkprop KCorrelationData 0 c []) user) = Some (mkprop KCorrelationData 0 c []) :: map Some user.
Proof. reflexivity. Qed.

Theorem reply_on_the_wire : forall t c user cap off bs block,
  enc_publish cap {| pq_topic := t; pq_pid := None; pq_props := PWithCorr (mkprop KCorrelationData 0 c []) user;
                     pq_retain := false; pq_qos := Q0; pq_dup := false; pq_payload := [114] |} = SOk off bs ->
  encode_all (mkprop KCorrelationData 0 c [] :: user) = Some block -> utf8_valid t = true ->
  from_buffer bs = Some (RPublish t None Q0 false false block [114]).
Proof.
  intros t c user cap off bs block He Hb Hu. apply (publish_decodes _ _ _ _ block He); [exact Hb|exact Hu|exact I].
Qed.

(* the owned copy: an error when a value does not fit its capacity, never a truncated copy *)
Theorem reply_owned_spec : forall inbound T C,
  match response_topic inbound with
  | None => reply_owned inbound T C = OwnNone
  | Some t =>
      if (lenN t <=? T) && match correlation_data inbound with Some c => lenN c <=? C | None => true end
      then reply_owned inbound T C = OwnOk t (correlation_data inbound)
      else reply_owned inbound T C = OwnErr
  end.
Proof.
  intros inbound T C. unfold reply_owned. destruct (response_topic inbound) as [t|]; [|reflexivity].
  destruct (N.ltb_spec T (lenN t)); destruct (N.leb_spec (lenN t) T); try lia; cbn [andb]; [reflexivity|].
  destruct (correlation_data inbound) as [c|]; [|reflexivity].
  destruct (N.ltb_spec C (lenN c)); destruct (N.leb_spec (lenN c) C); try lia; reflexivity.
Qed.

Theorem owned_publication_is_reply : forall inbound T C t c user,
  reply_owned inbound T C = OwnOk t c ->
  reply_with inbound user = Some (owned_publication t c user).
Proof.
  intros inbound T C t c user H. unfold reply_owned in H. unfold reply_with, reply, owned_publication.
  destruct (response_topic inbound) as [t0|]; [|discriminate H].
  destruct (T <? lenN t0); [discriminate H|].
  destruct (correlation_data inbound) as [c0|].
  - destruct (C <? lenN c0); [discriminate H|]. injection H as Ht Hc. subst t c. reflexivity.
  - injection H as Ht Hc. subst t c. reflexivity.
Qed.
