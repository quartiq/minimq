(* Status.v — session-level facts behind C02, C03, C05 and C18: what `status` says of a handle, when the generation
   changes, what a fresh / resumed / failed CONNACK does, the PUBREC step and the order of the release list. *)
From Coq Require Import Lia.
From Minimq Require Import Effects Bytes Ser De Arena Core.
From Minimq Require Import ArenaOps Inv Lts.

Lemma status_invalidated : forall s o, status s o = StInvalidated <-> op_gen o <> s_gen s.
Proof.
  intros s o. unfold status. destruct (N.eqb_spec (op_gen o) (s_gen s)) as [E|E]; cbn [negb].
  - split; [|contradiction]. destruct (N.eqb (op_kind o) 1); [destruct (_ || _)|destruct (has_retained _ _)]; discriminate.
  - split; [intros _; exact E | reflexivity].
Qed.

Lemma status_pending : forall s o, op_gen o = s_gen s ->
  (status s o = StPending <->
   (In (op_pid o) (map re_pid (ob_ret (s_ob s))) \/ (op_kind o = 1 /\ In (op_pid o) (map le_pid (ob_rel (s_ob s)))))).
Proof.
  intros s o Hg. unfold status. rewrite Hg, N.eqb_refl. cbn [negb].
  rewrite <- has_retained_In, <- has_release_In.
  destruct (N.eqb_spec (op_kind o) 1) as [Ek|Ek];
    destruct (has_retained (s_ob s) (op_pid o)); destruct (has_pending_release (s_ob s) (op_pid o)); cbn [orb];
    intuition (try discriminate; try congruence).
Qed.

Lemma status_complete : forall s o, status s o = StComplete <-> (op_gen o = s_gen s /\ status s o <> StPending).
Proof.
  intros s o. unfold status. destruct (N.eqb_spec (op_gen o) (s_gen s)) as [E|E]; cbn [negb].
  - destruct (N.eqb (op_kind o) 1); [destruct (_ || _)|destruct (has_retained _ _)];
      intuition (try discriminate; try congruence).
  - intuition (try discriminate; try congruence).
Qed.

Lemma gen_step : forall s l s', sstep s l s' ->
  s_gen s' = s_gen s \/ (exists u m, l = LConnack false u m /\ s_gen s' = (s_gen s + 1) mod 4294967296).
Proof.
  intros s l s' H. destruct (sstep_frame _ _ _ H) as [[_ [E _]]|[sp [a [its [now [_ [-> ->]]]]]]]; [now left|].
  destruct sp; [now left|]. right. eexists _, _. split; reflexivity.
Qed.

Lemma puback_rejected : forall s pid rc o, ack_packet (s_ob s) pid = (o, true) -> rc_success rc = false ->
  handle_packet s (RPubAck pid rc) = (set_rt (set_ob s o) (quota_inc (s_rt s)), HErr (ERejected rc)).
Proof. intros s pid rc o H Hr. cbn [handle_packet]. rewrite H. cbn [negb]. now rewrite Hr. Qed.

Lemma pubrec_rejected_ends_exchange : forall s pid rc o, ack_packet (s_ob s) pid = (o, true) -> rc_success rc = false ->
  handle_packet s (RPubRec pid rc) = (set_rt (set_ob s o) (quota_inc (s_rt s)), HErr (ERejected rc)).
Proof. intros s pid rc o H Hr. cbn [handle_packet]. rewrite H. now rewrite Hr. Qed.

Lemma clean_start_mirror : forall s, cq_clean (connect_request s) = negb (s_sp s).
Proof. reflexivity. Qed.
Lemma connect_client_id : forall s, cq_client_id (connect_request s) = s_client_id s.
Proof. reflexivity. Qed.

Lemma sp_monotone : forall s l s', sstep s l s' -> s_sp s = true -> s_sp s' = true.
Proof.
  intros s l s' H Hs. destruct (sstep_frame _ _ _ H) as [[_ [_ [E _]]]|[sp [a [its [now [_ [_ ->]]]]]]]; [now rewrite E | reflexivity].
Qed.

Lemma connack_sets_sp : forall s p now r, snd (connack_process s p now) = CAOk r -> s_sp (fst (connack_process s p now)) = true.
Proof.
  intros s p now r H. destruct (connack_process s p now) as [s1 cr] eqn:E. cbn [fst snd] in *.
  destruct (connack_cases _ _ _ _ _ E) as [[_ [e [d ->]]]|[sp [rc [props [a [_ [_ [_ [-> _]]]]]]]]]; [discriminate|reflexivity].
Qed.

Lemma connack_fresh : forall s p now s', connack_process s p now = (s', CAOk false) ->
  s_ob s' = ob_clear (s_ob s) /\ s_srv s' = [] /\ s_gen s' = (s_gen s + 1) mod 4294967296 /\ s_pid s' = 1 /\
  (forall o, op_gen o = s_gen s -> s_gen s < 4294967296 -> status s' o = StInvalidated).
Proof.
  intros s p now s' H. destruct (connack_cases _ _ _ _ _ H) as [[_ [e [d X]]]|[sp [rc [props [a [_ [_ [_ [-> X]]]]]]]]]; [discriminate|].
  injection X as <-. cbn [connack_ok s_ob s_srv s_gen s_pid data_reset].
  refine (conj eq_refl (conj eq_refl (conj eq_refl (conj eq_refl _)))).
  intros o Hg Hb. apply status_invalidated. cbn [connack_ok data_reset s_gen]. rewrite Hg.
  destruct (N.eqb_spec (s_gen s + 1) 4294967296) as [E|E].
  - rewrite E. change (4294967296 mod 4294967296) with 0. lia.
  - rewrite N.mod_small by lia. lia.
Qed.

Lemma connack_resumed : forall s p now s', connack_process s p now = (s', CAOk true) ->
  s_ob s' = s_ob s /\ s_srv s' = s_srv s /\ s_gen s' = s_gen s /\ s_pid s' = s_pid s.
Proof.
  intros s p now s' H. destruct (connack_cases _ _ _ _ _ H) as [[_ [e [d X]]]|[sp [rc [props [a [_ [_ [_ [-> X]]]]]]]]]; [discriminate|].
  injection X as <-. repeat split; reflexivity.
Qed.

Lemma connack_failed_keeps : forall s p now s' e d, connack_process s p now = (s', CAErr e d) -> s' = s.
Proof.
  intros s p now s' e d H. destruct (connack_cases _ _ _ _ _ H) as [[-> _]|[sp [rc [props [a [_ [_ [_ [_ X]]]]]]]]]; [reflexivity|discriminate].
Qed.

Lemma arm_replay_states : forall o, has_pending_state o = true ->
  Forall (fun e => re_st e = SWrite 0) (ob_ret (arm_replay o)) /\
  Forall (fun e => le_st e = SWrite 0) (ob_rel (arm_replay o)) /\
  Forall (fun e => ce_st e = SWrite 0) (ob_ctl (arm_replay o)) /\
  map re_pid (ob_ret (arm_replay o)) = map re_pid (ob_ret o) /\
  map le_pid (ob_rel (arm_replay o)) = map le_pid (ob_rel o).
Proof.
  intros o H. unfold arm_replay. rewrite H. cbn [negb ob_ret ob_rel ob_ctl].
  unfold mark_retained_dup. cbn [ob_ret ob_rel ob_ctl].
  repeat split; try (apply Forall_forall; intros x Hx; apply in_map_iff in Hx; destruct Hx as [y [<- _]]; reflexivity);
    rewrite map_map; reflexivity.
Qed.

Definition step_state (st : ostep) : sstate := match st with StCtl _ s | StRel _ _ s | StRet _ _ _ s => s end.

Lemma pass_state : forall o p st, next_step_pass o p = Some st -> matches_priority (step_state st) p = true.
Proof.
  intros o p st H. unfold next_step_pass, orelse, find_ctl, find_rel, find_ret in H.
  destruct (find (fun e => matches_priority (ce_st e) p) (ob_ctl o)) as [e|] eqn:E1.
  - inversion H; subst. apply find_some in E1. exact (proj2 E1).
  - destruct (find (fun e => matches_priority (le_st e) p) (ob_rel o)) as [e|] eqn:E2.
    + inversion H; subst. apply find_some in E2. exact (proj2 E2).
    + destruct (find (fun e => matches_priority (re_st e) p) (ob_ret o)) as [e|] eqn:E3; [|discriminate].
      inversion H; subst. apply find_some in E3. exact (proj2 E3).
Qed.

(* within one connection nothing is written twice *)
Lemma next_step_not_sent : forall o st, next_step o = Some st -> step_state st <> SSent.
Proof.
  intros o st H. unfold next_step, orelse in H.
  destruct (next_step_pass o true) as [st1|] eqn:E1.
  - inversion H; subst. apply pass_state in E1. intros Hs. rewrite Hs in E1. discriminate.
  - apply pass_state in H. intros Hs. rewrite Hs in H. discriminate.
Qed.

(* the PUBREC step is atomic: in one step the identifier leaves the retained list and joins the release list *)
Lemma pubrec_moves : forall s pid rc o o2, Inv s ->
  ack_packet (s_ob s) pid = (o, true) -> rc_success rc = true ->
  check_pubrel_size (rt_mps (s_rt s)) pid 0 = None -> queue_release o pid 0 = Some o2 ->
  handle_packet s (RPubRec pid rc) = (set_ob (set_ob s o) o2, HOk false) /\
  ~ In pid (map re_pid (ob_ret o2)) /\ In pid (map le_pid (ob_rel o2)).
Proof.
  intros s pid rc o o2 I Ha Hr Hc Hq. cbn [handle_packet]. rewrite Ha, Hr. cbn [negb set_ob s_rt]. rewrite Hc.
  cbn [set_ob s_ob]. rewrite Hq. split; [reflexivity|].
  destruct (ack_packet_found _ _ _ (inv_ob _ I) Ha) as [_ [Hn _]].
  destruct (queue_release_inv _ _ _ _ Hq) as [-> _]. cbn [with_rel ob_ret ob_rel].
  split.
  - intros Hin. apply Hn. unfold ids. apply in_or_app. now left.
  - rewrite map_app. apply in_or_app. right. now left.
Qed.

(* order: the release list grows at the tail only (and shrinks by deleting one element in place,
   `Inv.remove_first_rel_order`), so the PUBRELs still owed are in the order in which their PUBRECs were processed *)
Lemma queue_release_tail : forall o pid rc o', queue_release o pid rc = Some o' ->
  ob_rel o' = ob_rel o ++ [{| le_pid := pid; le_rc := rc; le_st := SWrite 0 |}].
Proof. intros o pid rc o' H. now destruct (queue_release_inv _ _ _ _ H) as [-> _]. Qed.

(* the engine serves fresh entries of one list strictly in list order *)
Lemma find_first_fresh : forall (l : list lentry) e, find (fun e => matches_priority (le_st e) false) l = Some e ->
  exists a b, l = a ++ e :: b /\ Forall (fun x => is_fresh (le_st x) = false) a.
Proof.
  induction l as [|x t IH]; intros e H; cbn [find] in H; [discriminate|].
  destruct (matches_priority (le_st x) false) eqn:E.
  - inversion H; subst. exists [], t. split; [reflexivity|constructor].
  - destruct (IH e H) as [a [b [H1 H2]]]. exists (x :: a), b. split; [now rewrite H1|]. constructor; [exact E|exact H2].
Qed.
