(* SerLemmas.v — the bounded serializer: what an `SOk off bytes` result guarantees. *)
From Coq Require Import Lia ZifyBool.
From Minimq Require Import Util Bytes Varint Ser VarintProofs.

Lemma ser_push_spec : forall cs cap idx acc idx' body,
  ser_push cap idx cs acc = SOk idx' body ->
  idx <= idx' /\ (idx' <= cap \/ idx' = idx) /\ lenN body = lenN acc + (idx' - idx).
Proof.
  induction cs as [|c t IH]; intros cap idx acc idx' body H; cbn [ser_push] in H.
  - inversion H; subst. lia.
  - destruct c as [d|]; [|discriminate].
    unfold sat_sub in H. destruct (cap - idx <? lenN d) eqn:E; [discriminate|].
    apply IH in H. rewrite lenN_app in H. lia.
Qed.

Lemma varint_write_len : forall v bs, varint_write v = Some bs -> 1 <= lenN bs <= 4.
Proof.
  intros v bs H. apply varint_write_some in H as [Hv ->].
  destruct (write_fuel_shape 4 v Hv ltac:(lia)) as [t [b [E [_ [_ L]]]]].
  split; [rewrite E, lenN_app, lenN_cons; lia|exact L].
Qed.

(* the fixed header, right aligned in the five reserved bytes *)
Lemma finalize_inv : forall cap idx body typ flags off bs,
  finalize cap idx body typ flags = SOk off bs ->
  exists rl, varint_write (idx - 5) = Some rl /\ 5 <= cap /\ off = 4 - lenN rl /\
             bs = (typ * 16 + flags mod 16) :: rl ++ body.
Proof.
  intros cap idx body typ flags off bs H. unfold finalize in H.
  destruct (varint_write (idx - 5)) as [rl|]; [|discriminate].
  destruct (N.ltb_spec cap 5); [discriminate|]. injection H as <- <-.
  exists rl. repeat split; [assumption|lia].
Qed.

(* encode_with_offset is encode_publish_with_offset with an empty payload *)
Lemma encode_chunks_as_payload : forall cap typ flags cs,
  encode_chunks cap typ flags cs = encode_chunks_payload cap typ flags cs [].
Proof.
  intros. unfold encode_chunks, encode_chunks_payload, sat_sub. destruct (ser_push cap 5 cs []) as [idx body|]; [|reflexivity].
  change (lenN []) with 0. rewrite N.add_0_r, app_nil_r.
  destruct (N.ltb_spec (cap - N.min idx cap) 0); [lia|]. destruct (N.ltb_spec (cap - idx) 0); [lia|reflexivity].
Qed.

Lemma encode_payload_shape : forall cap typ flags cs payload off bs,
  encode_chunks_payload cap typ flags cs payload = SOk off bs ->
  exists idx body rl,
    ser_push cap 5 cs [] = SOk idx body /\ varint_write (lenN (body ++ payload)) = Some rl /\
    bs = (typ * 16 + flags mod 16) :: rl ++ body ++ payload /\
    off + lenN bs = 5 + lenN (body ++ payload) /\ 5 + lenN (body ++ payload) <= cap.
Proof.
  intros cap typ flags cs payload off bs H. unfold encode_chunks_payload, sat_sub in H.
  destruct (ser_push cap 5 cs []) as [idx body|] eqn:E; [|discriminate].
  destruct (ser_push_spec _ _ _ _ _ _ E) as [S1 [S2 S3]]. rewrite lenN_nil in S3.
  assert (Ei : idx = 5 + lenN body) by lia. clear S1 S3.
  destruct (N.ltb_spec (cap - N.min idx cap) (lenN payload)) as [|_]; [discriminate|].
  destruct (N.ltb_spec (cap - idx) (lenN payload)) as [|H1]; [discriminate|].
  destruct (finalize_inv _ _ _ _ _ _ _ H) as [rl [Hv [Hc [-> ->]]]].
  assert (Hcap : idx + lenN payload <= cap) by lia. clear S2 H1 Hc H E. subst idx.
  replace (5 + lenN body + lenN payload - 5) with (lenN (body ++ payload)) in Hv by (rewrite lenN_app; lia).
  destruct (varint_write_len _ _ Hv) as [L1 L4]. exists (5 + lenN body), body, rl.
  split; [reflexivity|]. split; [exact Hv|]. split; [reflexivity|]. clear Hv.
  rewrite lenN_cons, !lenN_app in *. lia.
Qed.

Lemma encode_chunks_payload_spec : forall cap typ flags cs payload off bs,
  encode_chunks_payload cap typ flags cs payload = SOk off bs ->
  off <= 3 /\ off + lenN bs <= cap /\ 2 <= lenN bs /\ exists t, bs = (typ * 16 + flags mod 16) :: t.
Proof.
  intros cap typ flags cs payload off bs H.
  destruct (encode_payload_shape _ _ _ _ _ _ _ H) as [idx [body [rl [_ [Hv [-> [Ho Hc]]]]]]].
  pose proof (varint_write_len _ _ Hv). rewrite lenN_cons, !lenN_app in *.
  repeat split; [lia|lia|lia|eexists; reflexivity].
Qed.

Lemma encode_chunks_spec : forall cap typ flags cs off bs,
  encode_chunks cap typ flags cs = SOk off bs ->
  off <= 3 /\ off + lenN bs <= cap /\ 2 <= lenN bs /\ exists t, bs = (typ * 16 + flags mod 16) :: t.
Proof. intros cap typ flags cs off bs. rewrite encode_chunks_as_payload. apply encode_chunks_payload_spec. Qed.
