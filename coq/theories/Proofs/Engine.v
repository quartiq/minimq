(* Engine.v — the three outbound queues read as ONE list in the order in which `next_step` serves them, and the
   entry the engine works on as a position in that list: everything before and after it is at rest, and the two
   bookkeeping updates of drive.rs (set_written, complete_flush) change that one position and nothing else. *)
From Coq Require Import List NArith PeanoNat Lia.
From Minimq Require Import Bytes Ser Arena Core Util Shapes Status.
Import ListNotations.
Local Open Scope N_scope.

Lemma find_none_forall : forall {A} (p : A -> bool) l, find p l = None <-> Forall (fun x => p x = false) l.
Proof.
  intros A p l. induction l as [|x t IH]; cbn [find]; [split; [constructor|reflexivity]|].
  destruct (p x) eqn:E; [split; [discriminate|intros H; inversion H; congruence]|].
  rewrite IH. split; [now constructor|intros H; now inversion H].
Qed.

Lemma find_split : forall {A} (p : A -> bool) l e, find p l = Some e ->
  exists pre post, l = pre ++ e :: post /\ Forall (fun x => p x = false) pre /\ p e = true.
Proof.
  intros A p. induction l as [|x t IH]; intros e H; [discriminate|]. cbn [find] in H. destruct (p x) eqn:E.
  - inversion H; subst. exists [], t. split; [reflexivity|]. split; [constructor|exact E].
  - destruct (IH e H) as [pre [post [-> [Hp He]]]]. exists (x :: pre), post. split; [reflexivity|]. split; [constructor; assumption|exact He].
Qed.

Lemma sstate_cases : forall s,
  (is_fresh s = true /\ is_in_progress s = false) \/ (is_fresh s = false /\ is_in_progress s = true) \/ s = SSent.
Proof. intros [k| |]; cbn; [destruct (N.eqb k 0); auto|auto|auto]. Qed.

Lemma fresh_quiet : forall s, is_fresh s = true -> is_in_progress s = false.
Proof. intros [k| |] H; try discriminate. cbn in *. now rewrite H. Qed.

Lemma matches_true : forall s, matches_priority s true = is_in_progress s.
Proof. reflexivity. Qed.
Lemma matches_false : forall s, matches_priority s false = is_fresh s.
Proof. reflexivity. Qed.

Lemma caction_eqb_same : forall a, caction_eqb a a = true.
Proof. intros [p r|p r|p r|]; cbn [caction_eqb]; rewrite ?N.eqb_refl; reflexivity. Qed.

Definition busy (l : list sstate) : nat := length (filter is_in_progress l).
Lemma busy_app : forall a b, busy (a ++ b) = (busy a + busy b)%nat.
Proof. intros. unfold busy. now rewrite filter_app, app_length. Qed.
Lemma busy_cons : forall x l, busy (x :: l) = ((if is_in_progress x then 1 else 0) + busy l)%nat.
Proof. intros. unfold busy. cbn [filter]. destruct (is_in_progress x); reflexivity. Qed.
Lemma busy_none : forall l, busy l = 0%nat <-> Forall (fun s => is_in_progress s = false) l.
Proof.
  induction l as [|x t IH]; [split; [constructor|reflexivity]|]. rewrite busy_cons. destruct (is_in_progress x) eqn:E.
  - split; [discriminate|intros H; inversion H; congruence].
  - rewrite IH. split; [now constructor|intros H; now inversion H].
Qed.

(* an entry as the engine sees it: its send state and the whole packet it stands for *)
Definition item : Type := (sstate * bytes)%type.
Definition ctl_item (e : centry) : item :=
  (ce_st e, match encode_control_packet (ce_act e) with SOk _ bs => bs | SErr _ => [] end).
Definition rel_item (e : lentry) : item :=
  (le_st e, match encode_pubrel (le_pid e) (le_rc e) with SOk _ bs => bs | SErr _ => [] end).
Definition ret_item (buf : bytes) (e : rentry) : item := (re_st e, sliceN (re_off e) (re_len e) buf).
Definition items (o : outbound) : list item :=
  map ctl_item (ob_ctl o) ++ map rel_item (ob_rel o) ++ map (ret_item (ob_buf o)) (ob_ret o).

Definition quiet (i : item) : Prop := is_in_progress (fst i) = false.
Definition stale (i : item) : Prop := is_fresh (fst i) = false.

(* the bytes a list of items stands for when an item in state `st` contributes the part `g st bs` of its packet `bs`:
   the prefix already written, the rest still owed *)
Definition Gi (g : sstate -> bytes -> bytes) (l : list item) : bytes := concat (map (fun i => g (fst i) (snd i)) l).
Lemma Gi_app : forall g a b, Gi g (a ++ b) = Gi g a ++ Gi g b.
Proof. intros. unfold Gi. now rewrite map_app, concat_app. Qed.
Lemma Gi_cons : forall g st bs l, Gi g ((st, bs) :: l) = g st bs ++ Gi g l.
Proof. reflexivity. Qed.
Lemma Gi_nil : forall g l, Forall (fun i => g (fst i) (snd i) = []) l -> Gi g l = [].
Proof. intros g l H. induction H as [|x t Hx _ IH]; [reflexivity|]. unfold Gi in *. cbn [map concat]. now rewrite Hx, IH. Qed.
Lemma Gi_focus : forall g pre st bs post, Gi g (pre ++ (st, bs) :: post) = Gi g pre ++ g st bs ++ Gi g post.
Proof. intros. now rewrite Gi_app, Gi_cons. Qed.

Lemma pass_none : forall o b, next_step_pass o b = None <->
  Forall (fun i => matches_priority (fst i) b = false) (items o).
Proof.
  intros o b. unfold next_step_pass, orelse, find_ctl, find_rel, find_ret, items. rewrite !Forall_app, !Forall_map. cbn [fst ctl_item rel_item ret_item].
  rewrite <- !find_none_forall.
  destruct (find _ (ob_ctl o)); [split; [discriminate|intros [H _]; discriminate]|].
  destruct (find _ (ob_rel o)); [split; [discriminate|intros [_ [H _]]; discriminate]|].
  destruct (find _ (ob_ret o)); [split; [discriminate|intros [_ [_ H]]; discriminate]|]. tauto.
Qed.

Theorem next_step_none : forall o, next_step o = None <-> Forall (fun i => quiet i /\ stale i) (items o).
Proof.
  intros o. unfold next_step, orelse. destruct (next_step_pass o true) eqn:E1.
  - split; [discriminate|]. intros H. assert (N : next_step_pass o true = None); [|congruence].
    apply pass_none. eapply Forall_impl; [|exact H]. intros i [Q _]. exact Q.
  - rewrite pass_none in E1. rewrite pass_none. split; intros H.
    + apply Forall_forall. intros i Hi. rewrite Forall_forall in E1, H. split; [exact (E1 i Hi)|exact (H i Hi)].
    + eapply Forall_impl; [|exact H]. intros i [_ S]. exact S.
Qed.

Lemma busy_items : forall o,
  busy (map fst (items o)) = (busy (map ce_st (ob_ctl o)) + busy (map le_st (ob_rel o)) + busy (map re_st (ob_ret o)))%nat.
Proof. intros o. unfold items. rewrite !map_app, !busy_app, !map_map. apply Nat.add_assoc. Qed.

Lemma busy_quiet : forall l, busy (map fst l) = 0%nat <-> Forall quiet l.
Proof. intros l. rewrite busy_none, Forall_map. reflexivity. Qed.

(* at most one entry is in progress, and the pass for fresh entries runs only when none is: around the entry a pass
   picks all is quiet *)
Lemma around_quiet : forall b pre i post,
  (busy (map fst (pre ++ i :: post)) <= 1)%nat -> matches_priority (fst i) b = true ->
  (b = false -> Forall quiet (pre ++ i :: post)) -> Forall quiet pre /\ Forall quiet post.
Proof.
  intros [|] pre i post H Hi H0.
  - rewrite map_app, busy_app in H. cbn [map] in H. rewrite busy_cons, <- matches_true, Hi in H. split; apply busy_quiet; lia.
  - apply Forall_app in H0 as [A B]; [|reflexivity]. inversion B. now split.
Qed.

Definition pkt_of (st : ostep) : fpkt :=
  match st with StCtl a _ => FCtl a | StRel pid _ _ => FRel pid | StRet pid _ _ _ => FRet pid end.
Definition step_item (o : outbound) (st : ostep) : item :=
  match st with
  | StCtl a s0 => ctl_item {| ce_act := a; ce_st := s0 |}
  | StRel pid rc s0 => rel_item {| le_pid := pid; le_rc := rc; le_st := s0 |}
  | StRet pid off len s0 => ret_item (ob_buf o) {| re_pid := pid; re_off := off; re_len := len; re_st := s0 |}
  end.

(* the entry with key `p` set to state `st'`: what set_*_written and flush_* do to their queue (flush_control also
   drops the entry) *)
Definition put (o : outbound) (p : fpkt) (st' : sstate) : outbound :=
  match p with
  | FCtl a => with_ctl o (fst (update_first (fun e => caction_eqb (ce_act e) a) (fun e => {| ce_act := ce_act e; ce_st := st' |}) (ob_ctl o)))
  | FRel pid => with_rel o (fst (update_first (fun e => N.eqb (le_pid e) pid)
                                  (fun e => {| le_pid := le_pid e; le_rc := le_rc e; le_st := st' |}) (ob_rel o)))
  | FRet pid => with_ret o (fst (update_first (fun e => N.eqb (re_pid e) pid)
                                  (fun e => {| re_pid := re_pid e; re_off := re_off e; re_len := re_len e; re_st := st' |}) (ob_ret o)))
  end.

Lemma set_written_put : forall s p x len, s_ob (fst (set_written s p x len)) = put (s_ob s) p (set_written_state x len).
Proof.
  intros s p x len. unfold set_written, put. destruct p as [a|pid|pid];
    [unfold set_control_written|unfold set_release_written|unfold set_retained_written]; destruct (update_first _ _ _); reflexivity.
Qed.

Definition flushed (o : outbound) (p : fpkt) : outbound :=
  match p with
  | FCtl _ => with_ctl o (filter (fun e => negb (sstate_eqb (ce_st e) SSent)) (ob_ctl (put o p SSent)))
  | _ => put o p SSent
  end.

Lemma complete_flush_put : forall s p now, s_ob (fst (complete_flush s p now)) = flushed (s_ob s) p.
Proof.
  intros s p now. unfold complete_flush, flushed, put. destruct p as [a|pid|pid];
    [unfold flush_control|unfold flush_release|unfold flush_retained]; destruct (update_first _ _ _); reflexivity.
Qed.

Lemma filter_unsent_fresh : forall t : list centry, Forall (fun x => is_fresh (ce_st x) = true) t ->
  filter (fun e => negb (sstate_eqb (ce_st e) SSent)) t = t.
Proof.
  induction t as [|y t IH]; intros F; [reflexivity|]. inversion F; subst. cbn [filter].
  destruct (ce_st y) as [w| |]; try discriminate. cbn [sstate_eqb negb]. now rewrite IH.
Qed.

Lemma pass_pick : forall o b st, next_step_pass o b = Some st ->
  matches_priority (step_state st) b = true /\
  ((exists e pre post, ob_ctl o = pre ++ e :: post /\ st = StCtl (ce_act e) (ce_st e) /\
      Forall (fun x => matches_priority (ce_st x) b = false) pre) \/
   (Forall (fun x => matches_priority (ce_st x) b = false) (ob_ctl o) /\
    exists e pre post, ob_rel o = pre ++ e :: post /\ st = StRel (le_pid e) (le_rc e) (le_st e) /\
      Forall (fun x => matches_priority (le_st x) b = false) pre) \/
   (Forall (fun x => matches_priority (ce_st x) b = false) (ob_ctl o) /\
    Forall (fun x => matches_priority (le_st x) b = false) (ob_rel o) /\
    exists e pre post, ob_ret o = pre ++ e :: post /\ st = StRet (re_pid e) (re_off e) (re_len e) (re_st e) /\
      Forall (fun x => matches_priority (re_st x) b = false) pre)).
Proof.
  intros o b st H. unfold next_step_pass, orelse, find_ctl, find_rel, find_ret in H.
  destruct (find _ (ob_ctl o)) as [e|] eqn:Fc.
  { destruct (find_split _ _ _ Fc) as [pre [post [E [Hp He]]]]. injection H as <-. split; [exact He|]. left. now exists e, pre, post. }
  apply find_none_forall in Fc. destruct (find _ (ob_rel o)) as [e|] eqn:Fl.
  { destruct (find_split _ _ _ Fl) as [pre [post [E [Hp He]]]]. injection H as <-. split; [exact He|]. right; left. split; [exact Fc|]. now exists e, pre, post. }
  apply find_none_forall in Fl. destruct (find _ (ob_ret o)) as [e|] eqn:Fr; [|discriminate].
  destruct (find_split _ _ _ Fr) as [pre [post [E [Hp He]]]]. injection H as <-. split; [exact He|]. right; right.
  split; [exact Fc|]. split; [exact Fl|]. now exists e, pre, post.
Qed.

Lemma next_step_pass_of : forall o st, next_step o = Some st ->
  exists b, next_step_pass o b = Some st /\ (b = false -> Forall quiet (items o)).
Proof.
  intros o st Hn. unfold next_step, orelse in Hn. destruct (next_step_pass o true) eqn:E1.
  - exists true. split; [congruence|discriminate].
  - exists false. split; [exact Hn|]. intros _. apply pass_none in E1. exact E1.
Qed.

(* what the engine's bookkeeping rests on *)
Definition Served (o : outbound) : Prop :=
  NoDup (map re_pid (ob_ret o)) /\ NoDup (map le_pid (ob_rel o)) /\
  match ob_ctl o with [] => True | e :: t => ce_st e <> SSent /\ Forall (fun x => is_fresh (ce_st x) = true) t end /\
  (busy (map ce_st (ob_ctl o)) + busy (map le_st (ob_rel o)) + busy (map re_st (ob_ret o)) <= 1)%nat.

(* the key of the picked entry does not occur before it in its queue, so `put` changes that position only *)
Lemma picked_at : forall o b st, Served o ->
  (b = false -> Forall quiet (items o)) -> next_step_pass o b = Some st ->
  exists pre post, items o = pre ++ step_item o st :: post /\ Forall (fun i => matches_priority (fst i) b = false) pre /\
    (forall st', items (put o (pkt_of st) st') = pre ++ (st', snd (step_item o st)) :: post) /\
    match pkt_of st with FCtl _ => pre = [] /\ items (flushed o (pkt_of st)) = post | _ => True end.
Proof.
  intros o b st [Nret [Nrel [Hc _]]] Hq0 Hp. destruct (pass_pick _ _ _ Hp) as [Hm Hpick].
  destruct Hpick as [[e [pre [post [Ec [-> Hpre]]]]]|[[Fc [e [pre [post [El [-> Hpre]]]]]]|[Fc [Fl [e [pre [post [Er [-> Hpre]]]]]]]]];
    cbn [step_state pkt_of step_item] in *.
  - (* control: an entry behind the head is fresh, so it is picked only if the head is neither fresh nor in progress *)
    assert (pre = []).
    { destruct pre as [|x pre']; [reflexivity|exfalso]. rewrite Ec in Hc. destruct Hc as [Hx Ht]. apply Forall_app in Ht as [_ Ht].
      inversion Ht as [|? ? He _]; subst. inversion Hpre as [|? ? Hx0 _]; subst.
      destruct b; [rewrite matches_true, (fresh_quiet _ He) in Hm; discriminate|]. rewrite matches_false in Hx0.
      specialize (Hq0 eq_refl). unfold items in Hq0. rewrite Ec in Hq0. inversion Hq0 as [|? ? Qx _].
      destruct (sstate_cases (ce_st x)) as [[Hf _]|[[_ Hi]|Hsx]]; [congruence|unfold quiet in Qx; cbn [fst ctl_item] in Qx; congruence|contradiction]. }
    subst pre. rewrite Ec in Hc. destruct Hc as [_ Ht]. destruct e as [a s0].
    exists [], (map ctl_item post ++ map rel_item (ob_rel o) ++ map (ret_item (ob_buf o)) (ob_ret o)). unfold items, flushed, put. rewrite Ec.
    cbn [app update_first ce_act]. rewrite caction_eqb_same. cbn [fst with_ctl ob_ctl filter ce_st sstate_eqb negb]. rewrite (filter_unsent_fresh _ Ht).
    repeat split. constructor.
  - pose proof (nodup_pre_keys le_pid pre e post) as Kpre. rewrite <- El in Kpre. specialize (Kpre Nrel).
    exists (map ctl_item (ob_ctl o) ++ map rel_item pre), (map rel_item post ++ map (ret_item (ob_buf o)) (ob_ret o)). unfold items, put.
    rewrite El, !map_app, <- !app_assoc. split; [destruct e; reflexivity|]. split; [rewrite Forall_app, !Forall_map; now split|]. split; [intros st'|exact I].
    rewrite (update_first_at _ _ pre e post Kpre (N.eqb_refl _)). cbn [fst with_rel ob_ctl ob_rel ob_ret ob_buf]. rewrite !map_app, <- !app_assoc.
    destruct e; reflexivity.
  - pose proof (nodup_pre_keys re_pid pre e post) as Kpre. rewrite <- Er in Kpre. specialize (Kpre Nret).
    exists (map ctl_item (ob_ctl o) ++ map rel_item (ob_rel o) ++ map (ret_item (ob_buf o)) pre), (map (ret_item (ob_buf o)) post). unfold items, put.
    rewrite Er, !map_app, <- !app_assoc. split; [destruct e; reflexivity|]. split; [rewrite !Forall_app, !Forall_map; now repeat split|]. split; [intros st'|exact I].
    rewrite (update_first_at _ _ pre e post Kpre (N.eqb_refl _)). cbn [fst with_ret ob_ctl ob_rel ob_ret ob_buf]. rewrite !map_app, <- !app_assoc.
    destruct e; reflexivity.
Qed.

Theorem focus : forall o st, Served o -> next_step o = Some st ->
  exists pre post,
    items o = pre ++ step_item o st :: post /\
    (forall st', items (put o (pkt_of st) st') = pre ++ (st', snd (step_item o st)) :: post) /\
    (match pkt_of st with
     | FCtl _ => pre = [] /\ items (flushed o (pkt_of st)) = post
     | _ => True end) /\
    Forall quiet pre /\ Forall quiet post /\ (is_in_progress (step_state st) = false -> Forall stale pre).
Proof.
  intros o st Hsv Hn. pose proof (proj2 (proj2 (proj2 Hsv))) as Hs. rewrite <- busy_items in Hs.
  destruct (next_step_pass_of _ _ Hn) as [b [Hp Hq0]]. destruct (picked_at _ _ _ Hsv Hq0 Hp) as [pre [post [E0 [Rpre [Hput Hctl]]]]]. exists pre, post. rewrite E0 in Hs, Hq0.
  destruct (pass_pick _ _ _ Hp) as [Hm _].
  assert (Hm' : matches_priority (fst (step_item o st)) b = true) by (destruct st; exact Hm).
  destruct (around_quiet _ _ _ _ Hs Hm' Hq0) as [Qpre Qpost]. repeat split; try assumption.
  intros E. destruct b; [rewrite matches_true in Hm; congruence|exact Rpre].
Qed.

Lemma prepare_write : forall s st p bs w len, prepare_step s st = PWrite p bs w len ->
  p = pkt_of st /\ step_item (s_ob s) st = (SWrite w, bs).
Proof.
  intros s st p bs w len H. pose proof (prepare_step_inv s st) as P. rewrite H in P. destruct P as [_ P].
  unfold step_item, ctl_item, rel_item, ret_item, retained_packet in *.
  destruct st; cbn [ce_act ce_st le_pid le_rc le_st re_off re_len re_st]; destruct P as [-> [-> [_ P]]]; [destruct P as [off ->]..|subst bs]; now split.
Qed.

Lemma prepare_flush : forall s st p, prepare_step s st = PFlush p -> p = pkt_of st /\ step_state st = SFlush.
Proof. intros s st p H. pose proof (prepare_step_inv s st) as P. rewrite H in P. destruct st; destruct P as [-> ->]; now split. Qed.

Lemma put_put : forall o p a b, put (put o p a) p b = put o p b.
Proof.
  intros o p a b. destruct p as [k|pid|pid]; unfold put;
    [cbn [ob_ctl with_ctl]|cbn [ob_rel with_rel]|cbn [ob_ret with_ret]]; rewrite update_first_twice; reflexivity.
Qed.

Lemma flushed_put : forall o p a, flushed (put o p a) p = flushed o p.
Proof. intros o p a. unfold flushed. rewrite put_put. destruct p; reflexivity. Qed.

Lemma flushed_items : forall o p bs pre post,
  (forall st', items (put o p st') = pre ++ (st', bs) :: post) ->
  (match p with FCtl _ => pre = [] /\ items (flushed o p) = post | _ => True end) ->
  exists mid, (mid = [] \/ mid = [(SSent, bs)]) /\ items (flushed o p) = pre ++ mid ++ post.
Proof.
  intros o p bs pre post Hput Hctl. specialize (Hput SSent). destruct p as [a|pid|pid].
  - destruct Hctl as [-> Hctl]. exists []. split; [left; reflexivity|exact Hctl].
  - exists [(SSent, bs)]. split; [right; reflexivity|exact Hput].
  - exists [(SSent, bs)]. split; [right; reflexivity|exact Hput].
Qed.

Theorem write_focus : forall s st p bs w len,
  Served (s_ob s) -> next_step (s_ob s) = Some st -> prepare_step s st = PWrite p bs w len ->
  exists pre post,
    items (s_ob s) = pre ++ (SWrite w, bs) :: post /\
    (forall x, items (s_ob (fst (set_written s p x len))) = pre ++ (set_written_state x len, bs) :: post) /\
    (forall x now, exists mid, (mid = [] \/ mid = [(SSent, bs)]) /\
       items (s_ob (fst (complete_flush (fst (set_written s p x len)) p now))) = pre ++ mid ++ post) /\
    Forall quiet pre /\ Forall quiet post /\ (w = 0 -> Forall stale pre).
Proof.
  intros s st p bs w len Hsv Hn Hp. destruct (prepare_write _ _ _ _ _ _ Hp) as [-> Hi].
  destruct (focus _ _ Hsv Hn) as [pre [post [E0 [Hput [Hctl [Qpre [Qpost Hst]]]]]]]. rewrite Hi in *. cbn [snd] in *.
  exists pre, post. split; [exact E0|]. split; [intros x; rewrite set_written_put; apply Hput|].
  split; [|split; [exact Qpre|split; [exact Qpost|]]].
  - intros x now. rewrite complete_flush_put, set_written_put, flushed_put. exact (flushed_items _ _ _ _ _ Hput Hctl).
  - intros ->. apply Hst. assert (E : step_state st = SWrite 0) by (destruct st; cbn in Hi |- *; now inversion Hi). now rewrite E.
Qed.

Theorem flush_focus : forall s st p,
  Served (s_ob s) -> next_step (s_ob s) = Some st -> prepare_step s st = PFlush p ->
  exists pre post bs mid,
    items (s_ob s) = pre ++ (SFlush, bs) :: post /\ (mid = [] \/ mid = [(SSent, bs)]) /\
    (forall now, items (s_ob (fst (complete_flush s p now))) = pre ++ mid ++ post) /\
    Forall quiet pre /\ Forall quiet post.
Proof.
  intros s st p Hsv Hn Hp. destruct (prepare_flush _ _ _ Hp) as [-> Hst].
  destruct (focus _ _ Hsv Hn) as [pre [post [E0 [Hput [Hctl [Qpre [Qpost _]]]]]]].
  destruct (flushed_items _ _ _ _ _ Hput Hctl) as [mid [Hm Em]].
  exists pre, post, (snd (step_item (s_ob s) st)), mid.
  split; [rewrite E0; destruct st; cbn [step_state] in Hst; subst; reflexivity|]. split; [exact Hm|].
  split; [intros now; rewrite complete_flush_put; exact Em|]. split; assumption.
Qed.
