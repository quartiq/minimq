(* Reach.v — every run of a program under a script is a path of the session LTS (`run_case_wq`); hence what every step
   of the LTS keeps holds in every reachable world: `Inv`, and under the environment's assumptions `Q`. *)
From Coq Require Import Lia.
From Minimq Require Import Bytes Arena Core Machine Run.
From Minimq Require Import Io Blocks Lts Refine CfgFrame ArenaOps Inv Quota Cap.

Lemma record_op_same : forall w o, w_sess (record_op w o) = w_sess w /\ w_envok (record_op w o) = w_envok w.
Proof. intros. unfold record_op. destruct o as [[h|]| | | |]; split; reflexivity. Qed.

Lemma fold_feed_wq : forall chunks w, wq w (fold_left (fun w c => feed w (fst c) (snd c)) chunks w).
Proof.
  induction chunks as [|c t IH]; intros w; cbn [fold_left]; [apply wq_refl|]. eapply wq_trans; [apply wq_frame, feed_frame | apply IH].
Qed.

Lemma wq_then : forall {A} (x : world * A) (k : world -> A -> world) w,
  wq w (fst x) -> (forall w1 o, w_sess (k w1 o) = w_sess w1 /\ w_envok (k w1 o) = w_envok w1) ->
  wq w (let '(w1, o) := x in k w1 o).
Proof. intros A [w1 o] k w H Hk. eapply wq_trans; [exact H | apply wq_same, Hk]. Qed.

Lemma run_action_wq : forall a w, wq w (run_action a w).
Proof.
  intros a w. assert (N : wq w (noconn w)) by (apply wq_same; split; reflexivity).
  destruct a; cbn [run_action].
  - cbv zeta. set (w0 := upd_poison _ false). apply (wq_trans _ w0); [apply wq_same; split; reflexivity|].
    eapply wq_trans; [apply fold_feed_wq|].
    apply (wq_then (op_connect FUEL _)); [apply op_connect_wq|]. intros w2 r. destruct r; split; reflexivity.
  - destruct (negb (w_conn w)); [exact N|].
    apply (wq_then (op_publish FUEL r w)); [apply op_publish_wq | intros; apply record_op_same].
  - destruct (negb (w_conn w)); [exact N|].
    apply (wq_then (op_subscribe FUEL topics ps w)); [apply op_subscribe_wq | intros; apply record_op_same].
  - destruct (negb (w_conn w)); [exact N|].
    apply (wq_then (op_unsubscribe FUEL topics ps w)); [apply op_unsubscribe_wq | intros; apply record_op_same].
  - destruct (negb (w_conn w)); [exact N|].
    apply (wq_then (op_disconnect FUEL d w)); [apply (run_wq (fun _ => True)), op_disconnect_run | split; reflexivity].
  - destruct (negb (w_conn w)); [exact N|]. apply (wq_then (op_drive FUEL w)); [apply (run_wq (fun _ => True)), op_drive_run | split; reflexivity].
  - destruct (negb (w_conn w)); [exact N|]. apply (wq_then (op_poll FUEL w)); [apply op_poll_wq | split; reflexivity].
  - destruct (negb (w_conn w)); [exact N|]. apply (wq_then (op_recv FUEL w)); [apply (run_wq (fun _ => True)), op_recv_run | split; reflexivity].
  - exact (wq_frame _ _ (proj1 (feed_frame w delay bs))).
  - apply wq_same. split; reflexivity.
  - apply wq_same. split; reflexivity.
  - destruct (negb (w_conn w)); [exact N|]. eapply wq_trans; [apply hd_wq | apply wq_same; split; reflexivity].
  - apply wq_same. split; reflexivity.
  - destruct (w_conn w); [apply wq_same; split; reflexivity|].
    eapply wq_trans; [eapply wq_upd; [apply SS_setpid | reflexivity] | apply wq_same; split; reflexivity].
    (* the hook stores `pid mod 65536`, or 1 when that is 0: the range `SS_setpid` asks for *)
    pose proof (N.mod_upper_bound pid 65536 ltac:(lia)). destruct (N.eqb_spec (pid mod 65536) 0); lia.
  - apply wq_same. split; reflexivity.
Qed.

Lemma step_action_wq : forall w a, wq w (step_action w a).
Proof.
  intros w a. unfold step_action. destruct (halted w); [apply wq_refl|]. cbv zeta.
  set (w1 := run_action a _).
  assert (H : wq w w1) by (eapply wq_trans; [|apply run_action_wq]; apply wq_same; split; reflexivity).
  destruct (halted w1); [exact H|]. eapply wq_trans; [exact H | apply wq_same; split; reflexivity].
Qed.

Theorem run_case_wq : forall c, wq (init_world c) (run_case c).
Proof.
  intros c. unfold run_case. generalize (init_world c) as w. induction (c_prog c) as [|a t IH]; intros w; cbn [fold_left].
  - apply wq_refl.
  - eapply wq_trans; [apply step_action_wq | apply IH].
Qed.

Lemma reachable_closed : forall (P : session -> Prop),
  (forall s l s', sstep s l s' -> P s -> P s') ->
  forall c, P (session_new (c_cfg c)) -> P (w_sess (run_case c)).
Proof. intros P Hc c. exact (wq_closed P Hc _ _ (run_case_wq c)). Qed.

Lemma reachable_closed_ok : forall (P : session -> Prop),
  (forall s l s', sstep s l s' -> label_ok l = true -> P s -> P s') ->
  forall c, w_envok (run_case c) = true -> P (session_new (c_cfg c)) -> P (w_sess (run_case c)).
Proof.
  intros P Hc c He H0. destruct (run_case_wq c) as [b [[ls [Hp Hf]] Hb]].
  cbn [init_world w_envok andb] in Hb. rewrite He in Hb. rewrite <- Hb in Hf. exact (spath_inv_ok P Hc _ _ _ Hp Hf H0).
Qed.

Theorem reachable_Inv : forall c, Inv (w_sess (run_case c)).
Proof. intros c. apply (reachable_closed Inv Inv_step). apply Inv_init. Qed.

Corollary reachable_ids : forall c : case,
  NoDup (ids (s_ob (w_sess (run_case c)))) /\
  Forall (fun i => 1 <= i <= 65535) (ids (s_ob (w_sess (run_case c)))).
Proof. intros c. pose proof (reachable_Inv c) as [[_ _ _ _ N F] _ _]. exact (conj N F). Qed.

Corollary allocator_total : forall s s' id,
  OInv (s_ob s) -> id_ok (s_pid s) -> next_packet_id s = (s', id) -> id <> 0.
Proof.
  intros s s' id H1 H2 H3. destruct (next_packet_id_fresh s s' id H1 H2 H3) as [Hok _].
  unfold id_ok in Hok. lia.
Qed.

(* C06: the Receive Maximum invariant on every reachable world *)
Theorem reachable_Q : forall c, w_envok (run_case c) = true -> Q (w_sess (run_case c)).
Proof.
  intros c He. apply (reachable_closed_ok (fun s => Inv s /\ Q s)); [|exact He|].
  - intros s l s' H Hl [I Hq]. split; [eapply Inv_step | eapply Q_step]; eassumption.
  - split; [apply Inv_init|]. unfold Q, unresolved_publishes.
    cbn [session_new s_rt s_ob rt_new ob_new ob_ret ob_rel ob_buf rt_quota rt_maxquota filter glen]. lia.
Qed.

(* C17: the arena keeps its size in every reachable world *)
Theorem reachable_Cap : forall c, lenN (ob_buf (s_ob (w_sess (run_case c)))) = cf_tx (c_cfg c).
Proof.
  intros c. assert (H : Inv (w_sess (run_case c)) /\ CapInv (w_sess (run_case c))).
  { apply (reachable_closed (fun s => Inv s /\ CapInv s)).
    - intros s l s' H [I Hc]. split; [eapply Inv_step | eapply CapInv_step]; eassumption.
    - split; [apply Inv_init | apply CapInv_init]. }
  destruct H as [_ Hc]. unfold CapInv in Hc. now rewrite Hc, (wq_cfg _ _ (run_case_wq c)).
Qed.

Corollary reachable_arena_wf : forall c : case, arena_wf (s_ob (w_sess (run_case c))).
Proof. intros c. apply (oi_arena _ (inv_ob _ (reachable_Inv c))). Qed.
