(* Exchange3.v — C16, one whole SUBSCRIBE / UNSUBSCRIBE exchange against the answering broker: subscribe() (unsubscribe())
   on a quiescent healthy connection puts exactly the encoded request on the wire, the broker answers with the SUBACK (UNSUBACK)
   of its identifier, and the next poll() completes the handle. *)
From Minimq Require Import Bytes Varint Props Ser De Reader Arena Core Machine Run Util Lts
  VarintProofs CodecProofs BrokerProofs Inv WireInv
  Effects ConnectOk PingQuiet Healthy Framing Exchange.
Import ListNotations.
Local Open Scope N_scope.
Local Opaque u16_be.

Lemma drain_single_retained_rt : forall f w2 e bs h rl body reply,
  Hc w2 -> PQ w2 ->
  ob_ctl (s_ob (w_sess w2)) = [] -> ob_rel (s_ob (w_sess w2)) = [] -> ob_ret (s_ob (w_sess w2)) = [e] -> re_st e = SWrite 0 ->
  sliceN (re_off e) (re_len e) (ob_buf (s_ob (w_sess w2))) = bs ->
  bs = h :: rl ++ body -> varint_write (lenN body) = Some rl -> broker_reply 1 bs = reply -> reply <> [] ->
  rt_ka_ms (s_rt (w_sess w2)) = 0 -> rt_ping_timeout (s_rt (w_sess w2)) = None ->
  w_broker w2 = 1 -> w_txbuf w2 = [] -> w_inq w2 = [] -> w_last_arrival w2 <= w_now w2 ->
  exists w3,
    flush_outbound (S (S f)) w2 = (w3, ODone tt) /\ w_wire w3 = w_wire w2 ++ bs /\ w_inq w3 = [(w_now w2, reply)] /\
    Hc w3 /\ s_reader (w_sess w3) = s_reader (w_sess w2) /\ w_now w3 = w_now w2 /\
    rt_next_ping (s_rt (w_sess w3)) = None /\ rt_ping_timeout (s_rt (w_sess w3)) = None /\
    ob_ctl (s_ob (w_sess w3)) = [] /\ ob_rel (s_ob (w_sess w3)) = [] /\ ob_ret (s_ob (w_sess w3)) = [sent_entry e] /\
    rt_quota (s_rt (w_sess w3)) = rt_quota (s_rt (w_sess w2)) /\
    w_broker w3 = 1 /\ w_txbuf w3 = [] /\ w_last_arrival w3 = w_now w2 /\
    s_rt (w_sess w3) = note_outbound_activity (s_rt (w_sess w2)) (w_now w2) /\ ob_buf (s_ob (w_sess w3)) = ob_buf (s_ob (w_sess w2)).
Proof.
  intros f w2 e bs h rl body reply Hc2 Q2 Ec2 El2 Er2 Est Ebs Elay Hrl Hrep Hne Hka Hpt Hbr Htx Hiq Hla.
  destruct (retained_entry_sent f w2 e bs h rl body reply Hc2 Q2 Ec2 El2 Er2 Est Ebs Elay Hrl Hrep Hne Hka Hpt Hbr Htx Hla)
    as [w3 [E [[Hc3 Ec El Er _ Np Pt Br Tx Iq _] [W N La R Rt Bu]]]].
  rewrite Hiq in Iq. exists w3. repeat (split; [assumption|]).
  split; [rewrite Rt, (note_outbound_activity_ka0 _ _ Hka); reflexivity|]. repeat split; assumption.
Qed.

Lemma from_buffer_suback6 : forall h mk pid, (forall l, de_body h l = de_suback mk l) -> (mk = RSubAck \/ mk = RUnsubAck) -> pid < 65536 ->
  from_buffer (h :: [4] ++ u16_be pid ++ [0; 0]) = Some (mk pid [] [0]).
Proof.
  intros h mk pid Hde Hmk Hp. rewrite (from_buffer_frame h [4] (u16_be pid ++ [0; 0])) by (rewrite lenN_app, lenN_u16; reflexivity).
  rewrite Hde. change (u16_be pid ++ [0; 0]) with (u16_be pid ++ [0] ++ [] ++ [0]). rewrite (de_suback_block mk pid [0] [] [0] Hp eq_refl).
  destruct Hmk as [-> | ->]; reflexivity.
Qed.

(* first bytes: 130 SUBSCRIBE, 162 UNSUBSCRIBE *)
Lemma broker_reply_sub : forall mode rl pid rest, varint_write (lenN (u16_be pid ++ rest)) = Some rl ->
  broker_reply mode (130 :: rl ++ u16_be pid ++ rest) = 144 :: [4] ++ u16_be pid ++ [0; 0].
Proof.
  intros mode rl pid rest Hrl. unfold broker_reply. rewrite (varint_roundtrip _ _ _ Hrl).
  change (130 / 16) with 8. change (8 =? 3) with false. change (8 =? 6) with false. change (8 =? 8) with true. cbv iota.
  destruct (u16_be_two pid) as [a [b E]]. rewrite E. reflexivity.
Qed.
Lemma broker_reply_unsub : forall mode rl pid rest, varint_write (lenN (u16_be pid ++ rest)) = Some rl ->
  broker_reply mode (162 :: rl ++ u16_be pid ++ rest) = 176 :: [4] ++ u16_be pid ++ [0; 0].
Proof.
  intros mode rl pid rest Hrl. unfold broker_reply. rewrite (varint_roundtrip _ _ _ Hrl).
  change (162 / 16) with 10. change (10 =? 3) with false. change (10 =? 6) with false. change (10 =? 8) with false. change (10 =? 10) with true. cbv iota.
  destruct (u16_be_two pid) as [a [b E]]. rewrite E. reflexivity.
Qed.

Lemma pid_first_layout : forall cap typ flags pid cs off bs, encode_chunks cap typ flags (c_u16 pid :: cs) = SOk off bs ->
  exists rl rest, bs = (typ * 16 + flags mod 16) :: rl ++ u16_be pid ++ rest /\ varint_write (lenN (u16_be pid ++ rest)) = Some rl.
Proof.
  intros cap typ flags pid cs off bs H. destruct (encode_chunks_inv _ _ _ _ _ _ H) as [rl [body [Hc [Hv [Hb _]]]]].
  cbn [concat_chunks c_u16] in Hc. destruct (concat_chunks cs) as [rest|]; [|discriminate]. injection Hc as <-.
  exists rl, rest. split; assumption.
Qed.

Lemma enqueue_middle_quiescent : forall s kind enc s2 op,
  Inv s -> ob_ctl (s_ob s) = [] -> ob_rel (s_ob s) = [] -> ob_ret (s_ob s) = [] ->
  (forall id cap off bs, enc cap id = SOk off bs -> off + lenN bs <= cap /\ 2 <= lenN bs) ->
  enqueue_middle s kind enc = (s2, MRetained op) ->
  exists bs cap off e,
    enc cap (op_pid op) = SOk off bs /\ re_pid e = op_pid op /\ Enqueued s s2 e bs /\ op_pid op < 65536 /\ s_rt s2 = s_rt s.
Proof.
  intros s kind enc s2 op I Hc Hl Hr Hfit H.
  destruct (retained_on_empty _ _ _ _ _ _ _ (enqueue_middle_out _ _ _ _ _ H) I Hc Hl Hr)
    as [e0 [bs [cap [off [e [-> [Hb [Epid [Henq [Hid [Hrt _]]]]]]]]]]].
  - intros e0 ->. apply Hfit.
  - exists bs, cap, off, e. exact (conj Hb (conj Epid (conj Henq (conj Hid Hrt)))).
Qed.

Lemma handle_suback_single : forall mk s e pid, (mk = RSubAck \/ mk = RUnsubAck) -> ob_ret (s_ob s) = [sent_entry e] -> re_pid e = pid ->
  handle_packet s (mk pid [] [0]) =
    (set_ob s (compact {| ob_buf := ob_buf (s_ob s); ob_used := ob_used (s_ob s); ob_ctl := ob_ctl (s_ob s); ob_ret := []; ob_rel := ob_rel (s_ob s) |}), HOk false).
Proof.
  intros mk s e pid Hmk Er Epid. destruct Hmk as [-> | ->]; cbn [handle_packet]; unfold ack_packet; rewrite Er;
    cbn [remove_first_ret sent_entry re_pid]; rewrite Epid, N.eqb_refl; cbn [negb]; reflexivity.
Qed.

(* h, hd: the first bytes of the request and of its six-byte acknowledgement *)
Lemma enqueued_exchange : forall f k w s2 e bs h rl rest hd p pid,
  Await [] [] [] k w -> 6 <= k -> WInv s2 -> Enqueued (w_sess w) s2 e bs -> re_pid e = pid -> s_rt s2 = s_rt (w_sess w) ->
  bs = h :: rl ++ u16_be pid ++ rest -> varint_write (lenN (u16_be pid ++ rest)) = Some rl ->
  broker_reply 1 bs = hd :: [4] ++ u16_be pid ++ [0; 0] ->
  from_buffer (hd :: [4] ++ u16_be pid ++ [0; 0]) = Some p ->
  (forall s, ob_ret (s_ob s) = [sent_entry e] ->
     handle_packet s p = (set_ob s (compact {| ob_buf := ob_buf (s_ob s); ob_used := ob_used (s_ob s); ob_ctl := ob_ctl (s_ob s); ob_ret := []; ob_rel := ob_rel (s_ob s) |}), HOk false)) ->
  exists w1 w2,
    flush_outbound (S (S f)) (upd_sess w s2) = (w1, ODone tt) /\ w_wire w1 = w_wire w ++ bs /\
    w_inq w1 = [(w_now w, hd :: [4] ++ u16_be pid ++ [0; 0])] /\
    op_poll FUEL w1 = (w2, ODone None) /\ w_wire w2 = w_wire w1 /\ w_now w2 = w_now w /\
    s_rt (w_sess w2) = note_outbound_activity (s_rt (w_sess w)) (w_now w) /\
    ob_buf (s_ob (w_sess w2)) = ob_buf (s_ob s2) /\ Await [] [] [] k w2.
Proof.
  intros f k w s2 e bs h rl rest hd p pid A0 Hk6 I2 Henq Epid Hrt2 Elay Hrl Hrep Hdec Hh.
  assert (Hbody : lenN (u16_be pid ++ [0; 0]) = 4) by (rewrite lenN_app, lenN_u16; reflexivity).
  assert (Hlen : lenN (hd :: [4] ++ u16_be pid ++ [0; 0]) = 6) by (cbn [app]; rewrite !lenN_cons, Hbody; reflexivity).
  destruct (acked_exchange f k w s2 e bs h rl _ hd [4] (u16_be pid ++ [0; 0]) _
              (fun s => set_ob s (compact {| ob_buf := ob_buf (s_ob s); ob_used := ob_used (s_ob s); ob_ctl := ob_ctl (s_ob s); ob_ret := []; ob_rel := ob_rel (s_ob s) |}))
              A0 I2 Henq Elay Hrl Hrep ltac:(rewrite Hbody; reflexivity) ltac:(rewrite Hlen; exact Hk6) ltac:(rewrite Hlen; discriminate) Hdec)
    as [w1 [w2 [E1 [A1 [S1 [E2 [W2 [N2 [S2 A2]]]]]]]]].
  - exact Hh.
  - intros s. split; reflexivity.
  - exists w1, w2. split; [exact E1|]. split; [exact (sn_wire S1)|].
    split; [exact (cn_inq (aw_conn A1))|].
    split; [exact E2|]. split; [exact W2|]. split; [exact N2|].
    rewrite S2. cbn [set_ob set_reader s_rt s_ob compact compact_go ob_buf]. rewrite <- Hrt2. split; [exact (sn_rt S1)|]. split; [exact (sn_buf S1)|exact A2].
Qed.

(* `call` is the operation as a function of its fuel *)
Lemma enqueue_exchange : forall w kind enc s2 (call : nat -> world * outcome (option op)) o h hd mk,
  Await [] [] [] 6 w -> WInv s2 ->
  (forall id cap off bs, enc cap id = SOk off bs -> off + lenN bs <= cap /\ 2 <= lenN bs) ->
  enqueue_middle (w_sess w) kind enc = (s2, MRetained o) ->
  (forall cap off bs, enc cap (op_pid o) = SOk off bs ->
     exists rl rest, bs = h :: rl ++ u16_be (op_pid o) ++ rest /\ varint_write (lenN (u16_be (op_pid o) ++ rest)) = Some rl) ->
  (forall rl rest, varint_write (lenN (u16_be (op_pid o) ++ rest)) = Some rl ->
     broker_reply 1 (h :: rl ++ u16_be (op_pid o) ++ rest) = hd :: [4] ++ u16_be (op_pid o) ++ [0; 0]) ->
  (op_pid o < 65536 -> from_buffer (hd :: [4] ++ u16_be (op_pid o) ++ [0; 0]) = Some (mk (op_pid o) [] [0])) ->
  (mk = RSubAck \/ mk = RUnsubAck) ->
  (forall fu w1, flush_outbound (S fu) (upd_sess w s2) = (w1, ODone tt) -> call (S fu) = (w1, ODone (Some o))) ->
  exists w1 w2 bs cap off,
    call FUEL = (w1, ODone (Some o)) /\ enc cap (op_pid o) = SOk off bs /\ w_wire w1 = w_wire w ++ bs /\
    w_inq w1 = [(w_now w, hd :: [4] ++ u16_be (op_pid o) ++ [0; 0])] /\
    op_poll FUEL w1 = (w2, ODone None) /\ w_wire w2 = w_wire w1 /\ w_now w2 = w_now w /\
    s_rt (w_sess w2) = s_rt (w_sess w) /\ ob_cap (s_ob (w_sess w2)) = ob_cap (s_ob (w_sess w)) /\ Await [] [] [] 6 w2.
Proof.
  intros w kind enc s2 call o h hd mk A0 I2 Hfit Hm Hlay Hreply Hdec Hmk Hcall.
  pose proof (aw_conn A0) as H. pose proof (cn_hc H) as [_ [_ [I _]]].
  destruct (enqueue_middle_quiescent _ _ _ _ _ (proj1 I) (cn_ctl H) (cn_rel H) (cn_ret H) Hfit Hm) as [bs [cap [off [e [Hb [Epid [Henq [Hid Hrt2]]]]]]]].
  destruct (Hlay _ _ _ Hb) as [rl [rest [Elay Hrl]]].
  destruct FUEL_big as [f Hf].
  destruct (enqueued_exchange (S (S (S f))) 6 w s2 e bs h rl rest hd (mk (op_pid o) [] [0]) (op_pid o)
              A0 (N.le_refl 6) I2 Henq Epid Hrt2 Elay Hrl ltac:(rewrite Elay; exact (Hreply rl rest Hrl)) (Hdec Hid)
              (fun s Hs0 => handle_suback_single mk s e (op_pid o) Hmk Hs0 Epid))
    as [w1 [w2 [E1 [Hw1 [Hi1 [E2 [W2 [N2 [Rt2 [Bu2 A2]]]]]]]]]].
  exists w1, w2, bs, cap, off. split; [rewrite Hf; exact (Hcall _ w1 E1)|].
  repeat (split; [assumption|]).
  split; [rewrite Rt2; exact (note_outbound_activity_idle _ _ (cn_ka H) (cn_np H) (cn_pt H))|].
  split; [|exact A2]. unfold ob_cap. rewrite Bu2. exact (enq_buf Henq).
Qed.

Lemma subscribe_exchange : forall w topics ps s2 op,
  Await [] [] [] 6 w -> topics <> [] -> props_valid_for (PSlice ps) CtxSubscribe = true ->
  subscribe_middle (w_sess w) topics ps = (s2, MRetained op) ->
  exists w1 w2 bs cap off,
    op_subscribe FUEL topics ps w = (w1, ODone (Some op)) /\
    enc_subscribe cap {| sq_pid := op_pid op; sq_props := ps; sq_topics := topics |} = SOk off bs /\ w_wire w1 = w_wire w ++ bs /\
    w_inq w1 = [(w_now w, 144 :: [4] ++ u16_be (op_pid op) ++ [0; 0])] /\
    op_poll FUEL w1 = (w2, ODone None) /\ w_wire w2 = w_wire w1 /\ w_now w2 = w_now w /\
    s_rt (w_sess w2) = s_rt (w_sess w) /\ ob_cap (s_ob (w_sess w2)) = ob_cap (s_ob (w_sess w)) /\ Await [] [] [] 6 w2.
Proof.
  intros w topics ps s2 op A0 Hne Hval Hm.
  pose proof (cn_hc (aw_conn A0)) as [_ [Hl [I _]]].
  apply (enqueue_exchange w 2 (fun cap id => enc_subscribe cap {| sq_pid := id; sq_props := ps; sq_topics := topics |}) s2 (fun fu => op_subscribe fu topics ps w) op 130 144 RSubAck A0); try assumption.
  - replace s2 with (fst (subscribe_middle (w_sess w) topics ps)) by (rewrite Hm; reflexivity). eapply WInv_step; [apply SS_subscribe|exact I].
  - intros id. apply enc_subscribe_fits.
  - intros cap off bs Hb. exact (pid_first_layout _ _ _ _ _ _ _ Hb).
  - intros rl rest. apply broker_reply_sub.
  - exact (from_buffer_suback6 144 RSubAck _ (fun l => eq_refl) (or_introl eq_refl)).
  - left; reflexivity.
  - intros fu w1 E1. unfold op_subscribe. rewrite Hl. cbn [negb]. destruct topics as [|t0 ts]; [contradiction|]. rewrite Hval. cbn [negb].
    rewrite (conn_flush_idle _ _ _ (aw_conn A0)). cbn [bindu].
    rewrite Hm. cbn [finish_mid]. rewrite E1. reflexivity.
Qed.

Theorem subscribe_exchange_completes : forall w topics ps s2 op,
  Hc w ->
  ob_ctl (s_ob (w_sess w)) = [] -> ob_rel (s_ob (w_sess w)) = [] -> ob_ret (s_ob (w_sess w)) = [] ->
  rt_ka_ms (s_rt (w_sess w)) = 0 -> rt_next_ping (s_rt (w_sess w)) = None -> rt_ping_timeout (s_rt (w_sess w)) = None ->
  w_broker w = 1 -> w_txbuf w = [] -> w_inq w = [] -> w_last_arrival w <= w_now w ->
  rdata (rd w) = [] -> rplen (rd w) = None -> 6 <= rcap (rd w) ->
  topics <> [] -> props_valid_for (PSlice ps) CtxSubscribe = true ->
  subscribe_middle (w_sess w) topics ps = (s2, MRetained op) -> op_pid op < 65536 ->
  exists w1 w2 bs cap off,
    op_subscribe FUEL topics ps w = (w1, ODone (Some op)) /\
    enc_subscribe cap {| sq_pid := op_pid op; sq_props := ps; sq_topics := topics |} = SOk off bs /\ w_wire w1 = w_wire w ++ bs /\
    w_inq w1 = [(w_now w, 144 :: [4] ++ u16_be (op_pid op) ++ [0; 0])] /\
    op_poll FUEL w1 = (w2, ODone None) /\ w_live w2 = true /\ w_inq w2 = [] /\
    ob_ctl (s_ob (w_sess w2)) = [] /\ ob_rel (s_ob (w_sess w2)) = [] /\ ob_ret (s_ob (w_sess w2)) = [] /\
    next_step (s_ob (w_sess w2)) = None.
Proof.
  intros w topics ps s2 op Hcw Ec El Er Hka Hnp Hpt Hbr Htx Hiq Hla Hrd Hrp Hcap Hne Hval Hm Hid.
  destruct (subscribe_exchange w topics ps s2 op
              (await_intro (conn_intro Hcw Ec El Er Hka Hnp Hpt Hbr Htx Hiq Hla) (room_intro _ Hrd Hrp Hcap)) Hne Hval Hm)
    as [w1 [w2 [bs [cap [off [E1 [Hb [Hw1 [Hi1 [E2 [_ [_ [_ [_ A2]]]]]]]]]]]]]].
  exists w1, w2, bs, cap, off. repeat (split; [assumption|]). exact (await_done _ _ A2).
Qed.

Lemma unsubscribe_exchange : forall w topics ps s2 op,
  Await [] [] [] 6 w -> topics <> [] -> props_valid_for (PSlice ps) CtxUnsubscribe = true ->
  unsubscribe_middle (w_sess w) topics ps = (s2, MRetained op) ->
  exists w1 w2 bs cap off,
    op_unsubscribe FUEL topics ps w = (w1, ODone (Some op)) /\
    enc_unsubscribe cap {| uq_pid := op_pid op; uq_props := ps; uq_topics := topics |} = SOk off bs /\ w_wire w1 = w_wire w ++ bs /\
    w_inq w1 = [(w_now w, 176 :: [4] ++ u16_be (op_pid op) ++ [0; 0])] /\
    op_poll FUEL w1 = (w2, ODone None) /\ w_wire w2 = w_wire w1 /\ w_now w2 = w_now w /\
    s_rt (w_sess w2) = s_rt (w_sess w) /\ ob_cap (s_ob (w_sess w2)) = ob_cap (s_ob (w_sess w)) /\ Await [] [] [] 6 w2.
Proof.
  intros w topics ps s2 op A0 Hne Hval Hm.
  pose proof (cn_hc (aw_conn A0)) as [_ [Hl [I _]]].
  apply (enqueue_exchange w 3 (fun cap id => enc_unsubscribe cap {| uq_pid := id; uq_props := ps; uq_topics := topics |}) s2 (fun fu => op_unsubscribe fu topics ps w) op 162 176 RUnsubAck A0); try assumption.
  - replace s2 with (fst (unsubscribe_middle (w_sess w) topics ps)) by (rewrite Hm; reflexivity). eapply WInv_step; [apply SS_unsubscribe|exact I].
  - intros id. apply enc_unsubscribe_fits.
  - intros cap off bs Hb. exact (pid_first_layout _ _ _ _ _ _ _ Hb).
  - intros rl rest. apply broker_reply_unsub.
  - exact (from_buffer_suback6 176 RUnsubAck _ (fun l => eq_refl) (or_intror eq_refl)).
  - right; reflexivity.
  - intros fu w1 E1. unfold op_unsubscribe. rewrite Hl. cbn [negb]. destruct topics as [|t0 ts]; [contradiction|]. rewrite Hval. cbn [negb].
    rewrite (conn_flush_idle _ _ _ (aw_conn A0)). cbn [bindu].
    rewrite Hm. cbn [finish_mid]. rewrite E1. reflexivity.
Qed.

Theorem unsubscribe_exchange_completes : forall w topics ps s2 op,
  Hc w ->
  ob_ctl (s_ob (w_sess w)) = [] -> ob_rel (s_ob (w_sess w)) = [] -> ob_ret (s_ob (w_sess w)) = [] ->
  rt_ka_ms (s_rt (w_sess w)) = 0 -> rt_next_ping (s_rt (w_sess w)) = None -> rt_ping_timeout (s_rt (w_sess w)) = None ->
  w_broker w = 1 -> w_txbuf w = [] -> w_inq w = [] -> w_last_arrival w <= w_now w ->
  rdata (rd w) = [] -> rplen (rd w) = None -> 6 <= rcap (rd w) ->
  topics <> [] -> props_valid_for (PSlice ps) CtxUnsubscribe = true ->
  unsubscribe_middle (w_sess w) topics ps = (s2, MRetained op) -> op_pid op < 65536 ->
  exists w1 w2 bs cap off,
    op_unsubscribe FUEL topics ps w = (w1, ODone (Some op)) /\
    enc_unsubscribe cap {| uq_pid := op_pid op; uq_props := ps; uq_topics := topics |} = SOk off bs /\ w_wire w1 = w_wire w ++ bs /\
    w_inq w1 = [(w_now w, 176 :: [4] ++ u16_be (op_pid op) ++ [0; 0])] /\
    op_poll FUEL w1 = (w2, ODone None) /\ w_live w2 = true /\ w_inq w2 = [] /\
    ob_ctl (s_ob (w_sess w2)) = [] /\ ob_rel (s_ob (w_sess w2)) = [] /\ ob_ret (s_ob (w_sess w2)) = [] /\
    next_step (s_ob (w_sess w2)) = None.
Proof.
  intros w topics ps s2 op Hcw Ec El Er Hka Hnp Hpt Hbr Htx Hiq Hla Hrd Hrp Hcap Hne Hval Hm Hid.
  destruct (unsubscribe_exchange w topics ps s2 op
              (await_intro (conn_intro Hcw Ec El Er Hka Hnp Hpt Hbr Htx Hiq Hla) (room_intro _ Hrd Hrp Hcap)) Hne Hval Hm)
    as [w1 [w2 [bs [cap [off [E1 [Hb [Hw1 [Hi1 [E2 [_ [_ [_ [_ A2]]]]]]]]]]]]]].
  exists w1, w2, bs, cap, off. repeat (split; [assumption|]). exact (await_done _ _ A2).
Qed.

Definition ex_so1 : sub_opts := {| so_qos := Q1; so_no_local := false; so_rap := false; so_rh := 0 |}.
Definition ex_filter : bytes := [102; 47; 97].
Definition ex_sub_a : world := fst (op_subscribe FUEL [(ex_filter, ex_so1)] [] ex_b1).
Definition ex_unsub_a : world := fst (op_unsubscribe FUEL [ex_filter] [] ex_b1).
Example exchange3_example :
  snd (subscribe_middle (w_sess ex_b1) [(ex_filter, ex_so1)] []) = MRetained {| op_kind := 2; op_pid := 1; op_gen := 1 |} /\
  snd (op_subscribe FUEL [(ex_filter, ex_so1)] [] ex_b1) = ODone (Some {| op_kind := 2; op_pid := 1; op_gen := 1 |}) /\
  w_wire ex_sub_a = w_wire ex_b1 ++ [130; 9; 0; 1; 0; 0; 3; 102; 47; 97; 1] /\ w_inq ex_sub_a = [(0, [144; 4; 0; 1; 0; 0])] /\
  snd (op_poll FUEL ex_sub_a) = ODone None /\ ob_ret (s_ob (w_sess (fst (op_poll FUEL ex_sub_a)))) = [] /\
  snd (op_unsubscribe FUEL [ex_filter] [] ex_b1) = ODone (Some {| op_kind := 3; op_pid := 1; op_gen := 1 |}) /\
  w_wire ex_unsub_a = w_wire ex_b1 ++ [162; 8; 0; 1; 0; 0; 3; 102; 47; 97] /\ w_inq ex_unsub_a = [(0, [176; 4; 0; 1; 0; 0])] /\
  snd (op_poll FUEL ex_unsub_a) = ODone None /\ ob_ret (s_ob (w_sess (fst (op_poll FUEL ex_unsub_a)))) = [].
Proof. vm_compute. repeat split. Qed.
