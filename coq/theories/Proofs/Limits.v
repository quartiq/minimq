(* Limits.v — C14: Maximum Packet Size honoured in both directions. *)
From Coq Require Import Lia.
From Minimq Require Import Bytes Props Ser Reader Arena Core Machine.
From Minimq Require Import SerLemmas Effects Shapes Chunking.

Definition within (mps : option N) (len : N) : Prop := match mps with Some m => len <= m | None => True end.

Lemma too_large_false : forall mps len, too_large mps len = false -> within mps len.
Proof. intros [m|] len H; cbn [too_large within] in *; [lia|exact I]. Qed.
Lemma too_large_true : forall mps len, too_large mps len = true -> exists m, mps = Some m /\ m < len.
Proof. intros [m|] len H; cbn [too_large] in *; [exists m; split; [reflexivity|lia]|discriminate]. Qed.

(* what the outbound engine hands to write(): the length compared is the length written; len = limit passes *)
Lemma prepare_step_within : forall s st p bs w len,
  prepare_step s st = PWrite p bs w len -> within (rt_mps (s_rt s)) len /\ (forall a, p = FCtl a -> lenN bs = len) /\ (forall pid, p = FRel pid -> lenN bs = len).
Proof.
  intros s st p bs w len H. pose proof (prepare_step_inv s st) as P. rewrite H in P. destruct P as [T P].
  split; [exact (too_large_false _ _ T)|]. destruct st; destruct P as [_ [-> [E _]]]; split; intros; (discriminate || exact (eq_sym E)).
Qed.

Lemma prepare_step_refuses : forall s st,
  (exists pid off len w m, st = StRet pid off len (SWrite w) /\ rt_mps (s_rt s) = Some m /\ m < len) ->
  prepare_step s st = PErr EPacketTooLarge.
Proof.
  intros s st [pid [off [len [w [m [-> [Hm Hl]]]]]]]. cbn [prepare_step]. rewrite Hm. cbn [too_large].
  destruct (N.ltb_spec m len); [reflexivity|lia].
Qed.

Lemma mid_out_within : forall E D dec live s s' m, mid_out E D dec live s s' m ->
  match m with
  | MDirect bs => within (rt_mps (s_rt s')) (lenN bs)
  | MRetained o => exists e, In e (ob_ret (s_ob s')) /\ re_pid e = op_pid o /\ within (rt_mps (s_rt s')) (re_len e)
  | MErr _ => True
  end.
Proof.
  intros E D dec live s s' m H. destruct H as [| |bs _ _ _ Ht| | |p id enc o1 off len o2 k _ _ _ Ht Hr _]; try exact I.
  - now apply too_large_false.
  - apply retain_packet_inv in Hr. destruct Hr as [-> _].
    exists {| re_pid := id; re_off := off; re_len := len; re_st := SWrite 0 |}.
    split; [|split; [reflexivity|destruct dec; now apply too_large_false]].
    destruct dec; cbn [set_rt set_ob s_ob ob_ret]; apply in_or_app; right; now left.
Qed.

Lemma publish_middle_within : forall s live r s' m,
  publish_middle s live r = (s', m) ->
  match m with
  | MDirect bs => within (rt_mps (s_rt s')) (lenN bs)
  | MRetained o => exists e, In e (ob_ret (s_ob s')) /\ re_pid e = op_pid o /\ within (rt_mps (s_rt s')) (re_len e)
  | MErr _ => True
  end.
Proof. intros s live r s' m H. exact (mid_out_within _ _ _ _ _ _ _ (publish_middle_out _ _ _ _ _ H)). Qed.

Lemma enqueue_middle_within : forall s k enc s' o,
  enqueue_middle s k enc = (s', MRetained o) ->
  exists e, In e (ob_ret (s_ob s')) /\ re_pid e = op_pid o /\ within (rt_mps (s_rt s')) (re_len e).
Proof. intros s k enc s' o H. exact (mid_out_within _ _ _ _ _ _ _ (enqueue_middle_out _ _ _ _ _ H)). Qed.

Lemma disconnect_prepare_within : forall s d bs, disconnect_prepare s d = DPOk bs -> within (rt_mps (s_rt s)) (lenN bs).
Proof.
  intros s d bs H. unfold disconnect_prepare in H. destruct (match dq_props d with Some _ => _ | None => _ end); [discriminate|].
  destruct (enc_disconnect _ _) as [n b|se]; [|discriminate]. destruct (too_large _ _) eqn:E; [discriminate|].
  inversion H; subst. now apply too_large_false.
Qed.

(* a mandatory acknowledgement that would not fit closes the connection instead of being sent *)
Lemma ack_too_large_closes : forall w r' pl p s2 e,
  take_packet (s_reader (w_sess w)) = Some (r', pl, Some p) ->
  packet_available (s_reader (w_sess w)) = true ->
  handle_packet (set_reader (w_sess w) r') p = (s2, HErr EPacketTooLarge) ->
  e = EPacketTooLarge ->
  w_live (fst (process_received w)) = false /\ snd (process_received w) = OFail EPacketTooLarge.
Proof.
  intros w r' pl p s2 e Ht Ha Hh _. unfold process_received. rewrite Ha, Ht. cbn [negb]. rewrite Hh.
  split; reflexivity.
Qed.

Lemma connect_advertises_rx : forall s,
  In (mkprop KMaximumPacketSize (rcap (s_reader s) mod 4294967296) [] []) (cq_props (connect_request s)).
Proof. intros. cbn [connect_request cq_props]. now left. Qed.

Lemma window_in_buffer : forall r r' win, receive_buffer r = (r', Some win) ->
  (exists e, e <= rcap r' /\ win = e - read_bytes r') /\ rdata r' = rdata r /\ rcap r' = rcap r.
Proof.
  intros r r' win H. rewrite receive_buffer_eq in H. injection H as <- H. split; [|split; reflexivity].
  change (rcap (with_plen r (probed r))) with (rcap r). change (read_bytes (with_plen r (probed r))) with (read_bytes r).
  destruct (probed r) as [pl|].
  - destruct (N.leb_spec pl (rcap r)); [|discriminate]. injection H as <-. now exists pl.
  - destruct (5 <=? read_bytes r), (N.leb_spec (read_bytes r + 1) (rcap r)); try discriminate.
    injection H as <-. exists (read_bytes r + 1). split; [assumption|lia].
Qed.

Lemma oversize_inbound_refused : forall r pl, rplen r = Some pl -> rcap r < pl -> snd (receive_buffer r) = None.
Proof.
  intros r pl H L. unfold receive_buffer. rewrite H. cbn iota. rewrite H.
  destruct (N.leb_spec pl (rcap r)); [lia|reflexivity].
Qed.
