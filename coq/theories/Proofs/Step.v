(* Step.v — one step of the outbound engine, by outcome.
   `perform_outbound_step` prepares the entry `next_step` picked, then writes a piece of it or flushes it.  Whatever the
   transport does, the step ends in one of a few ways, and in each the session afterwards is a known function of the
   session before: untouched, the write recorded (`set_written`), or the write recorded and the flush completed
   (`complete_flush`).  Everything else in the world is moved by the I/O primitives only (`io_frame`). *)
From Coq Require Import List NArith.
From Minimq Require Import Bytes Arena Core Machine Util Io Shapes.
Import ListNotations.
Local Open Scope N_scope.

(* the world after, up to what I/O owns, is the world before with a new session *)
Definition stepped (w w' : world) : Prop := io_frame (upd_sess w (w_sess w')) w'.

Lemma frame_stepped : forall w w', io_frame w w' -> stepped w w'.
Proof. intros w w' F. unfold stepped. rewrite (fr_sess _ _ F). destruct F. now split. Qed.

Lemma stepped_trans : forall w w1 w', stepped w w1 -> stepped w1 w' -> stepped w w'.
Proof.
  intros w w1 w' [] []. split; cbn [w_sess upd_sess w_conn w_live w_event w_broker w_handles w_envok w_poison w_drained] in *; congruence.
Qed.

Lemma flush_current_cases : forall p now w w' r, flush_current p now w = (w', r) ->
  w_wire w' = w_wire w /\
  match r with
  | ODone true | OPanic => stepped w w' /\ w_sess w' = fst (complete_flush (w_sess w) p now)
  | OCancel => io_frame w w'
  | OFail e => w_live w' = false
  | ODone false | OFuel => False
  end.
Proof.
  intros p now w w' r H. unfold flush_current in H. destruct (w_live w) eqn:L; cbn [negb] in H; [|inversion H; subst; now split].
  pose proof (io_flush_frame w) as F. destruct (io_flush_other w) as [Hw _]. destruct (io_flush w) as [w1 fr]. cbn [fst] in F, Hw.
  destruct fr; [|inversion H; now split|inversion H; subst; now split].
  destruct (complete_flush (w_sess w1) p now) as [s f] eqn:Ec. rewrite (fr_sess _ _ F) in Ec.
  assert (S : stepped w (upd_sess w1 s) /\ w_sess (upd_sess w1 s) = fst (complete_flush (w_sess w) p now)).
  { cbn [w_sess upd_sess]. rewrite Ec. split; [|reflexivity]. destruct F. now split. }
  destruct f; inversion H; subst; (split; [exact Hw|exact S]).
Qed.

(* a write step put `n` more bytes of entry `p` on the wire and recorded them; `full`: that completed the entry and its
   flush went through *)
Definition wrote (w : world) (st : ostep) (p : fpkt) (bs : bytes) (wr len n now : N) (full : bool) (w' : world) : Prop :=
  prepare_step (w_sess w) st = PWrite p bs wr len /\ n <> 0 /\ n <= lenN bs - wr /\
  w_wire w' = w_wire w ++ takeN n (dropN wr bs) /\
  w_sess w' = if full then fst (complete_flush (fst (set_written (w_sess w) p (wr + n) len)) p now)
              else fst (set_written (w_sess w) p (wr + n) len).

Definition flushed_only (w : world) (st : ostep) (p : fpkt) (now : N) (w' : world) : Prop :=
  prepare_step (w_sess w) st = PFlush p /\ w_wire w' = w_wire w /\ w_sess w' = fst (complete_flush (w_sess w) p now).

Theorem perform_cases : forall st now w w' r, perform_outbound_step st now w = (w', r) ->
  match r with
  | ODone false => prepare_step (w_sess w) st = PDone /\ w' = w
  | ODone true => stepped w w' /\
      ((exists p bs wr len n, wrote w st p bs wr len n now false w' /\ wr + n < len) \/
       (exists p bs wr len n, wrote w st p bs wr len n now true w' /\ len <= wr + n) \/
       (exists p, flushed_only w st p now w'))
  | OCancel => stepped w w' /\
      ((w_wire w' = w_wire w /\ w_sess w' = w_sess w) \/
       exists p bs wr len n, wrote w st p bs wr len n now false w' /\ len <= wr + n)
  | OPanic => stepped w w' /\
      ((exists p bs wr len n, wrote w st p bs wr len n now false w') \/
       (exists p bs wr len n, wrote w st p bs wr len n now true w' /\ len <= wr + n) \/
       (exists p, flushed_only w st p now w'))
  | OFail e => w_live w' = false \/ e = EWriteZero \/ size_err e
  | OFuel => False
  end.
Proof.
  intros st now w w' r H. unfold perform_outbound_step in H.
  destruct (prepare_step (w_sess w) st) as [p bs wr len|p| |e] eqn:Ep.
  - destruct (w_live w) eqn:L; cbn [negb] in H; [|inversion H; subst; left; exact L].
    destruct (io_write (dropN wr bs) w) as [w1 rr] eqn:Ew. apply io_write_spec in Ew as [F Hwire].
    destruct rr as [n| |]; [|inversion H; now left|inversion H; subst; split; [now apply frame_stepped|left; split; [exact Hwire|apply (fr_sess _ _ F)]]].
    destruct Hwire as [Hwire Hle]. rewrite lenN_dropN in Hle.
    destruct (N.eqb_spec n 0) as [|Hn]; [inversion H; right; now left|].
    destruct (set_written (w_sess w1) p (wr + n) len) as [s f] eqn:Es. rewrite (fr_sess _ _ F) in Es.
    assert (W : wrote w st p bs wr len n now false (upd_sess w1 s)) by (unfold wrote; cbn [w_sess w_wire upd_sess]; rewrite Es; auto).
    assert (F2 : stepped w (upd_sess w1 s)) by (destruct F; now split).
    destruct f; cbn [negb] in H; [|inversion H; subst; split; [exact F2|left; now exists p, bs, wr, len, n]].
    destruct (N.ltb_spec (wr + n) len) as [Lt|Ge].
    + inversion H; subst. split; [exact F2|]. left. now exists p, bs, wr, len, n.
    + apply flush_current_cases in H. destruct H as [Hw H]. cbn [w_sess w_wire upd_sess] in Hw, H.
      assert (Wf : w_sess w' = fst (complete_flush s p now) -> wrote w st p bs wr len n now true w').
      { intros E. destruct W as [W1 [W2 [W3 [W4 W5]]]]. cbn [w_sess w_wire upd_sess] in W4, W5. unfold wrote. rewrite Hw, E, W5. auto. }
      destruct r as [[|]|e| | |]; try contradiction.
      * destruct H as [H E]. split; [exact (stepped_trans _ _ _ F2 H)|]. right. left. exists p, bs, wr, len, n. auto.
      * now left.
      * split; [exact (stepped_trans _ _ _ F2 (frame_stepped _ _ H))|]. right. exists p, bs, wr, len, n. split; [|exact Ge].
        destruct W as [W1 [W2 [W3 [W4 W5]]]]. cbn [w_sess w_wire upd_sess] in W4, W5. unfold wrote. rewrite Hw, (fr_sess _ _ H). auto.
      * destruct H as [H E]. split; [exact (stepped_trans _ _ _ F2 H)|]. right. left. exists p, bs, wr, len, n. auto.
  - apply flush_current_cases in H. destruct H as [Hw H]. destruct r as [[|]|e| | |]; try contradiction.
    + destruct H as [H E]. split; [exact H|]. right. right. now exists p.
    + now left.
    + split; [now apply frame_stepped|left; split; [exact Hw|apply (fr_sess _ _ H)]].
    + destruct H as [H E]. split; [exact H|]. right. right. now exists p.
  - inversion H. auto.
  - inversion H; subst. right. right. eapply prepare_step_err; exact Ep.
Qed.

Corollary perform_not_failed : forall st now w w' r, perform_outbound_step st now w = (w', r) ->
  match r with OFail _ => False | _ => True end ->
  (w_wire w' = w_wire w /\ w_sess w' = w_sess w) \/
  (exists p bs wr len n, prepare_step (w_sess w) st = PWrite p bs wr len /\ n <> 0 /\ n <= lenN bs - wr /\
     w_wire w' = w_wire w ++ takeN n (dropN wr bs) /\
     (w_sess w' = fst (set_written (w_sess w) p (wr + n) len) \/
      len <= wr + n /\ w_sess w' = fst (complete_flush (fst (set_written (w_sess w) p (wr + n) len)) p now))) \/
  (exists p, prepare_step (w_sess w) st = PFlush p /\ w_wire w' = w_wire w /\
     w_sess w' = fst (complete_flush (w_sess w) p now)).
Proof.
  intros st now w w' r H Hr. apply perform_cases in H.
  match goal with |- ?G =>
    assert (A : forall full p bs wr len n, wrote w st p bs wr len n now full w' -> (full = true -> len <= wr + n) -> G) by
      (intros full p bs wr len n [W1 [W2 [W3 [W4 W5]]]] L; right; left; exists p, bs, wr, len, n; repeat split; try assumption;
       destruct full; [right; split; [now apply L|exact W5]|left; exact W5])
  end.
  destruct r as [[|]|e| | |]; try contradiction.
  - destruct H as [_ [[p [bs [wr [len [n [W _]]]]]]|[[p [bs [wr [len [n [W L]]]]]]|[p W]]]]; [eapply A; [exact W|discriminate]|eapply A; [exact W|now intros _]|right; right; now exists p].
  - destruct H as [_ ->]. left. now split.
  - destruct H as [_ [U|[p [bs [wr [len [n [W _]]]]]]]]; [now left|eapply A; [exact W|discriminate]].
  - destruct H as [_ [[p [bs [wr [len [n W]]]]]|[[p [bs [wr [len [n [W L]]]]]]|[p W]]]]; [eapply A; [exact W|discriminate]|eapply A; [exact W|now intros _]|right; right; now exists p].
Qed.
