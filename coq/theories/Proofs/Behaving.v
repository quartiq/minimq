(* Behaving.v — the read side of a transport whose script is exhausted: a read that finds one chunk waiting delivers its
   front at once, as much as the window takes, and leaves the rest queued.  Hence the packet reader, offered the bytes
   of one whole, canonically framed packet that fits its buffer, assembles exactly that packet, whatever windows it asks
   for. *)
From Coq Require Import List NArith Lia String.
From Minimq Require Import Bytes Varint Reader Core Show Machine.
From Minimq Require Import Util VarintProofs ReaderInv Io.
Import ListNotations.
Local Open Scope N_scope.

Lemma io_read_arrived : forall dl win w t d,
  win <> 0 -> w_script w = [] -> w_inq w = [(t, d)] -> t <= w_now w -> d <> [] -> lenN d <= 1000000000 ->
  let n := N.min win (lenN d) in
  io_read win dl w =
  (upd_log (upd_inq (upd_script w []) (match dropN n d with [] => [] | r => [(w_now w, r)] end) (w_last_arrival w))
           (s2t "r "%string ++ show_N win ++ s2t " "%string ++ show_N n ++ s2t " "%string ++ hex (takeN n d)),
   RData (takeN n d)).
Proof.
  intros dl win w t d Hw Hs Hi Ht Hd Hl n. unfold io_read.
  destruct (N.eqb_spec win 0) as [E|_]; [contradiction|].
  rewrite (next_ev_nil w Hs). cbn [N.eqb]. rewrite Hi. cbn [avail_split].
  destruct (N.leb_spec t (w_now w)) as [_|Lt]; [|lia]. rewrite app_nil_r.
  destruct d as [|x d']; [contradiction|].
  unfold deliver. cbn [w_now w_inq upd_script]. rewrite Hi. cbn [avail_split].
  destruct (N.leb_spec t (w_now w)) as [_|Lt]; [|lia]. rewrite app_nil_r.
  change (N.max 1000000000 1) with 1000000000. rewrite (N.min_r 1000000000) by (fold n; lia). fold n.
  destruct (dropN n (x :: d')); reflexivity.
Qed.

Lemma timer_fired_arrived : forall y dl w t d,
  w_script w = [] -> w_inq w = [(t, d)] -> t <= w_now w -> d <> [] -> timer_fired y dl w = false.
Proof.
  intros y dl w t d Hs Hi Ht Hd. unfold timer_fired. rewrite (next_ev_nil w Hs). cbn [fst N.eqb negb andb orb].
  rewrite Hi. cbn [avail_split]. destruct (N.leb_spec t (w_now w)) as [_|Lt]; [|lia]. rewrite app_nil_r. cbn [fst].
  destruct d as [|x d']; [contradiction|]. destruct dl as [dd|]; [|apply andb_false_r].
  rewrite !andb_false_r. reflexivity.
Qed.

Lemma fill_go_arrived : forall dl y f w r' win t d,
  packet_available (s_reader (w_sess w)) = false -> receive_buffer (s_reader (w_sess w)) = (r', Some win) -> win <> 0 ->
  w_script w = [] -> w_inq w = [(t, d)] -> t <= w_now w -> d <> [] -> lenN d <= 1000000000 ->
  let n := N.min win (lenN d) in
  exists w2, fill_go (S f) y dl w = fill_go f y dl w2 /\
    w_sess w2 = set_reader (w_sess w) (commit r' (takeN n d)) /\
    w_script w2 = [] /\ w_now w2 = w_now w /\
    w_inq w2 = match dropN n d with [] => [] | r => [(w_now w, r)] end.
Proof.
  intros dl y f w r' win t d Ha Hr Hw Hs Hi Ht Hd Hl n. cbn [fill_go]. rewrite Ha, Hr.
  destruct (N.eqb_spec win 0) as [E|_]; [contradiction|].
  set (w0 := upd_sess w (set_reader (w_sess w) r')).
  rewrite (timer_fired_arrived y dl w0 t d Hs Hi Ht Hd), (io_read_arrived dl win w0 t d Hw Hs Hi Ht Hd Hl). fold n.
  cbn [w_waits upd_log upd_inq upd_script]. rewrite N.eqb_refl. cbn [negb]. rewrite orb_false_r.
  assert (Hn : takeN n d <> []).
  { intros E. apply (f_equal lenN) in E. rewrite lenN_takeN, lenN_nil in E. unfold n in E.
    destruct d; [contradiction|]. rewrite lenN_cons in E. lia. }
  destruct (takeN n d) as [|y0 ys] eqn:Et; [contradiction|].
  eexists. split; [reflexivity|]. repeat split.
Qed.

Lemma available_exact : forall r, RInv r -> packet_available r = true -> exists pl, rplen r = Some pl /\ read_bytes r = pl.
Proof.
  intros r [Hok _] Ha. unfold packet_available in Ha. unfold ROK in Hok. destruct (rplen r) as [pl|]; [|discriminate].
  exists pl. split; [reflexivity|]. apply N.leb_le in Ha. destruct Hok. lia.
Qed.

(* what the fill loop leaves alone: everything but the reader, the inbound queue, the clock, the wait counter, the script and the log *)
Definition reads_to (w w' : world) : Prop :=
  read_keeps (upd_sess w (w_sess w')) w' /\ exists r, w_sess w' = set_reader (w_sess w) r.

Lemma reads_to_reader : forall w r, reads_to w (upd_sess w (set_reader (w_sess w) r)).
Proof. intros. split; [now repeat split|now exists r]. Qed.
Lemma reads_to_refl : forall w, reads_to w w.
Proof. intros. split; [now repeat split|]. exists (s_reader (w_sess w)). now destruct (w_sess w). Qed.
Lemma reads_to_trans : forall a b c, reads_to a b -> reads_to b c -> reads_to a c.
Proof.
  intros a b c [[F1 [A1 [B1 C1]]] [r1 S1]] [[F2 [A2 [B2 C2]]] [r2 S2]]. destruct F1, F2.
  cbn [w_sess w_conn w_live w_event w_broker w_handles w_envok w_poison w_drained w_wire w_txbuf w_last_arrival upd_sess] in *.
  split; [split; [split; cbn [w_sess w_conn w_live w_event w_broker w_handles w_envok w_poison w_drained upd_sess]|cbn [w_wire w_txbuf w_last_arrival upd_sess]; repeat split]; congruence|].
  exists r2. rewrite S2, S1. reflexivity.
Qed.
Lemma reads_to_same : forall w w', read_keeps w w' -> reads_to w w'.
Proof.
  intros w w' [F [A [B C]]]. split; [|exists (s_reader (w_sess w)); rewrite (fr_sess _ _ F); now destruct (w_sess w)].
  destruct F. now repeat split.
Qed.

Lemma fill_go_reads : forall fuel y dl w, reads_to w (fst (fill_go fuel y dl w)).
Proof.
  induction fuel as [|f IH]; intros y dl w; cbn [fill_go]; [apply reads_to_refl|].
  destruct (packet_available _); [apply reads_to_refl|].
  destruct (receive_buffer (s_reader (w_sess w))) as [r' [win|]]; [|apply reads_to_reader].
  set (w0 := upd_sess w (set_reader (w_sess w) r')).
  assert (H0 : reads_to w w0) by apply reads_to_reader.
  destruct (N.eqb win 0); [exact H0|].
  destruct (timer_fired y dl w0); [eapply reads_to_trans; [exact H0|apply reads_to_same; now repeat split]|].
  pose proof (io_read_keeps win dl w0) as Hr. destruct (io_read win dl w0) as [w1 r]. cbn [fst] in Hr.
  assert (H1 : reads_to w w1) by (eapply reads_to_trans; [exact H0|apply reads_to_same; exact Hr]).
  destruct r as [[|x d]| | |]; cbn [fst]; try exact H1.
  eapply reads_to_trans; [exact H1|]. eapply reads_to_trans; [apply reads_to_reader|apply IH].
Qed.

Lemma fill_reads : forall fuel dl w, reads_to w (fst (fill_packet_reader fuel dl w)).
Proof. intros. apply fill_go_reads. Qed.

Lemma varint_split : forall v rl, varint_write v = Some rl ->
  exists t b, rl = t ++ [b] /\ Forall cont t /\ b < 128 /\ lenN rl <= 4.
Proof.
  intros v rl H. apply varint_write_some in H as [Hv ->].
  destruct (write_fuel_shape 4 v Hv ltac:(lia)) as [t [b [-> H]]]. now exists t, b.
Qed.

Local Notation rdr w := (s_reader (w_sess w)).

Section Whole.
Variables (h : N) (rl body : bytes).
Hypothesis Hrl : varint_write (lenN body) = Some rl.
Let P := h :: rl ++ body.
Let L := lenN P.

Local Lemma L_eq : L = 1 + lenN rl + lenN body.
Proof. unfold L, P. rewrite lenN_cons, lenN_app. lia. Qed.

Local Lemma rl_len : 1 <= lenN rl <= 4.
Proof. destruct (varint_split _ _ Hrl) as [t [b [E [_ [_ H4]]]]]. split; [rewrite E, lenN_app, lenN_cons; lia|exact H4]. Qed.

Lemma probe_prefix : forall k, 2 <= k -> k <= L ->
  probe_len (takeN 4 (dropN 1 (takeN k P))) = if k - 1 <? lenN rl then None else Some L.
Proof.
  intros k H2 Hk. destruct (varint_split _ _ Hrl) as [t [b [Erl [Hct [Hb Hl4]]]]].
  assert (Hd : dropN 1 (takeN k P) = takeN (k - 1) (rl ++ body)).
  { unfold P. rewrite !takeN_firstn, dropN_skipn. replace (N.to_nat k) with (S (N.to_nat (k - 1))) by lia. reflexivity. }
  rewrite Hd. destruct (N.ltb_spec (k - 1) (lenN rl)) as [Lt|Ge].
  - (* a strict prefix of the length field: continuation bytes only *)
    rewrite takeN_app_le by lia.
    assert (Hpre : takeN (k - 1) rl = takeN (k - 1) t).
    { rewrite Erl. rewrite Erl, lenN_app, lenN_cons, lenN_nil in Lt. apply takeN_app_le. lia. }
    rewrite Hpre. unfold probe_len. apply probe_go_cont. apply Forall_takeN. now apply Forall_takeN.
  - rewrite takeN_app_ge by lia. set (rest := takeN (k - 1 - lenN rl) body).
    pose proof (varint_roundtrip _ _ rest Hrl) as Hv. pose proof (probe_agrees _ _ _ Hv) as Hp.
    rewrite Hp. rewrite lenN_app. f_equal. rewrite L_eq. lia.
Qed.

Definition holds (r : reader) (k : N) : Prop :=
  rdata r = takeN k P /\ k <= L /\ L <= rcap r /\ RInv r /\ (forall pl, rplen r = Some pl -> pl = L).

Lemma holds_len : forall r k, holds r k -> read_bytes r = k.
Proof. intros r k [Hd [Hk _]]. unfold read_bytes. rewrite Hd, lenN_takeN. fold L. lia. Qed.

Lemma holds_empty : forall r, rdata r = [] -> rplen r = None -> L <= rcap r -> holds r 0.
Proof.
  intros r Hd Hp Hc. unfold holds. rewrite takeN_0, Hp.
  split; [exact Hd|]. split; [lia|]. split; [exact Hc|]. split; [|discriminate].
  split; [unfold ROK, HdrOk; rewrite Hp, Hd; constructor|intros _; unfold read_bytes; rewrite Hd; cbn; lia].
Qed.

Lemma window_holds : forall r k, holds r k ->
  exists r' win, receive_buffer r = (r', Some win) /\ win <= L - k /\
    (forall pl, rplen r' = Some pl -> pl = L) /\
    (win = 0 -> rplen r' = Some L) /\
    (k < L -> 1 <= win).
Proof.
  intros r k Hat. pose proof (holds_len _ _ Hat) as Hrb. destruct Hat as [Hd [Hk [Hcap [Hi Hpl]]]].
  pose proof rl_len as Hl4. pose proof L_eq as HL.
  unfold receive_buffer.
  destruct (rplen r) as [pl|] eqn:Ep.
  - (* the length is known: it is L *)
    pose proof (Hpl pl eq_refl). subst pl. rewrite Ep.
    destruct (N.leb_spec L (rcap r)) as [_|Bad]; [|lia].
    exists r, (L - read_bytes r). rewrite Hrb, Ep.
    split; [reflexivity|]. split; [lia|]. split; [intros pl E; now inversion E|]. split; [reflexivity|lia].
  - clear Hpl. unfold probe. rewrite Hrb.
    destruct (N.leb_spec k 1) as [K1|K1].
    + (* at most one byte: ask for one more *)
      rewrite Ep, Hrb. destruct (N.leb_spec (k + 1) (rcap r)) as [_|Bad]; [|lia].
      exists r, (k + 1 - k). rewrite Ep.
      split; [reflexivity|]. split; [lia|]. split; [discriminate|]. split; [lia|lia].
    + rewrite Hd, (probe_prefix k ltac:(lia) Hk).
      destruct (N.ltb_spec (k - 1) (lenN rl)) as [Lt|Ge].
      * (* still inside the length field *)
        destruct (N.leb_spec 5 k) as [Bad|_]; [lia|]. cbn [andb rplen rcap]. unfold read_bytes. cbn [rdata].
        rewrite lenN_takeN. fold L. rewrite (N.min_l k L) by exact Hk.
        destruct (N.leb_spec (k + 1) (rcap r)) as [_|Bad]; [|lia].
        eexists _, _. split; [reflexivity|]. cbn [rplen]. split; [lia|]. split; [discriminate|]. split; [lia|lia].
      * (* the length field is complete: the probe learns L *)
        rewrite andb_false_r. cbn [rplen rcap]. unfold read_bytes. cbn [rdata].
        rewrite lenN_takeN. fold L. rewrite (N.min_l k L) by exact Hk.
        destruct (N.leb_spec L (rcap r)) as [_|Bad]; [|lia].
        eexists _, _. split; [reflexivity|]. cbn [rplen]. split; [lia|]. split; [intros pl E; now inversion E|].
        split; [reflexivity|lia].
Qed.

Lemma holds_available : forall r k, holds r k -> packet_available r = true -> k = L /\ rdata r = P /\ rplen r = Some L.
Proof.
  intros r k Hat Ea. pose proof (holds_len _ _ Hat) as Hrb. destruct Hat as [Hd [Hk [Hcap [Hi Hpl]]]].
  destruct (available_exact _ Hi Ea) as [pl [Ep El]]. pose proof (Hpl pl Ep) as Hp. rewrite Hp in Ep, El.
  assert (Hk2 : k = L) by lia. split; [exact Hk2|]. rewrite Hk2 in Hd. rewrite Hd. split; [apply takeN_all, N.le_refl|exact Ep].
Qed.

(* with the whole packet in the reader the loop stops at once, whether or not the length had been probed yet *)
Lemma fill_complete : forall dl y f w, holds (rdr w) L ->
  exists w', fill_go (S f) y dl w = (w', FillOk) /\
    rdata (rdr w') = P /\ rplen (rdr w') = Some L /\ rcap (rdr w') = rcap (rdr w) /\
    w_sess w' = set_reader (w_sess w) (rdr w') /\ w_inq w' = w_inq w /\ w_script w' = w_script w /\ w_now w' = w_now w.
Proof.
  intros dl y f w Hat. cbn [fill_go]. destruct (packet_available (rdr w)) eqn:Ea.
  - destruct (holds_available _ _ Hat Ea) as [_ [Hp Hl]]. exists w. repeat split; try assumption.
    destruct (w_sess w); reflexivity.
  - destruct (window_holds _ _ Hat) as [r' [win [Er [Hw [_ [H0 _]]]]]]. rewrite Er.
    assert (E0 : win = 0) by lia. subst win. specialize (H0 eq_refl). cbn [N.eqb].
    destruct Hat as [Hd [_ [_ [Hi _]]]]. destruct (window_RInv _ _ _ Hi Er) as [Hd' [Hc' _]].
    eexists. split; [reflexivity|]. cbn [w_sess upd_sess set_reader s_reader w_inq w_script w_now].
    rewrite Hd', Hd, (takeN_all P L (N.le_refl L)). repeat split; assumption.
Qed.

(* `m` is the induction's measure, a bound on the bytes missing (every turn takes at least one); a caller gives `N.to_nat L` *)
Theorem fill_arrived : forall dl m fuel w k t,
  holds (rdr w) k -> L - k <= N.of_nat m -> (m + 2 <= fuel)%nat -> w_script w = [] -> L <= 1000000000 ->
  (k < L -> w_inq w = [(t, dropN k P)] /\ t <= w_now w) -> (k = L -> w_inq w = []) ->
  exists w', fill_packet_reader fuel dl w = (w', FillOk) /\
    rdata (rdr w') = P /\ rplen (rdr w') = Some L /\ rcap (rdr w') = rcap (rdr w) /\
    w_sess w' = set_reader (w_sess w) (rdr w') /\ w_inq w' = [] /\ w_script w' = [] /\ w_now w' = w_now w.
Proof.
  intros dl m fuel. unfold fill_packet_reader. generalize false. revert fuel.
  induction m as [|m IH]; intros fuel y w k t Hat Hm Hf Hs HB Hq Hq0; (destruct fuel as [|f]; [lia|]);
    (destruct (N.eq_dec k L) as [Ek|Nk];
     [subst k; destruct (fill_complete dl y f w Hat) as [w' [E [A1 [A2 [A3 [A4 [A5 [A6 A7]]]]]]]]; exists w';
      rewrite A5, A6, (Hq0 eq_refl), Hs; repeat split; assumption|]).
  { destruct Hat as [_ [Hk _]]. lia. }
  assert (HkL : k < L) by (destruct Hat as [_ [Hk _]]; lia). destruct (Hq HkL) as [Hinq Ht].
  clear Hq Hq0. (* lia reads every hypothesis with arithmetic in it, under an implication too, at each call *)
  assert (Ea : packet_available (rdr w) = false).
  { destruct (packet_available (rdr w)) eqn:Ea; [|reflexivity]. destruct (holds_available _ _ Hat Ea) as [Ek _]. contradiction. }
  destruct (window_holds _ _ Hat) as [r' [win [Er [Hw [Hpl' [_ H1]]]]]]. specialize (H1 HkL).
  destruct Hat as [Hd [Hk [Hcap [Hi _]]]]. destruct (window_RInv _ _ _ Hi Er) as [Hd' [Hc' [_ Hci]]].
  assert (Hlen : lenN (dropN k P) = L - k) by apply lenN_dropN.
  assert (Hne : dropN k P <> []) by (intros E; rewrite E, lenN_nil in Hlen; lia).
  destruct (fill_go_arrived dl y f w r' win t (dropN k P) Ea Er ltac:(lia) Hs Hinq Ht Hne ltac:(lia))
    as [w2 [Ef [S2 [C2 [N2 I2]]]]].
  rewrite (N.min_l win) in S2, I2 by (rewrite Hlen; exact Hw). rewrite Ef.
  assert (Hat2 : holds (rdr w2) (k + win)).
  { rewrite S2. cbn [set_reader s_reader]. unfold holds, commit. cbn [rdata rcap rplen].
    split; [rewrite Hd', Hd; apply takeN_takeN_dropN|]. split; [lia|]. split; [rewrite Hc'; exact Hcap|].
    split; [apply Hci; rewrite lenN_takeN; lia|exact Hpl']. }
  rewrite Util.dropN_dropN, (N.add_comm win k) in I2.
  destruct (IH f y w2 (k + win) (w_now w) Hat2 ltac:(lia) ltac:(lia) C2 HB) as [w' [Ew [A1 [A2 [A3 [A4 [A5 [A6 A7]]]]]]]].
  - intros Hlt. rewrite I2. destruct (dropN (k + win) P) eqn:Edr; [|split; [reflexivity|lia]].
    apply (f_equal lenN) in Edr. rewrite lenN_dropN, lenN_nil in Edr. fold L in Edr. lia.
  - intros Heq. rewrite I2, Heq. now rewrite (dropN_all P L) by apply N.le_refl.
  - exists w'. split; [exact Ew|]. split; [exact A1|]. split; [exact A2|].
    split; [rewrite A3, S2; exact Hc'|]. split; [rewrite A4, S2; destruct (w_sess w); reflexivity|].
    split; [exact A5|]. split; [exact A6|]. now rewrite A7.
Qed.
End Whole.
