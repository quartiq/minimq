(* KeepAlive.v — C10: the arithmetic and the state machine of the two keep-alive timers.
   All but `service_disconnects_iff_timed_out` is about the synchronous functions the machine calls
   (note_outbound_activity at every completed flush and at CONNACK, maybe_queue_pingreq / ping_timed_out in `service`,
   next_deadline in the wait); PingAt.v ties those calls to virtual time for the quiet wait, the correspondence check
   with the timing monitor does so for the code. *)
From Coq Require Import List NArith ZArith Lia.
From Minimq Require Import Bytes De Arena Core Machine Effects Shapes Lts.
Import ListNotations.
Local Open Scope N_scope.

(* k / 2 by its two bounds, so that lia needs no division *)
Lemma half_bounds : forall k, 2 * (k / 2) <= k /\ k < 2 * (k / 2) + 2.
Proof.
  intros k. pose proof (N.div_mod k 2 ltac:(discriminate)) as H1. pose proof (N.mod_lt k 2 ltac:(discriminate)) as H2.
  revert H1 H2. generalize (k / 2), (k mod 2). intros; lia.
Qed.

Definition ka_lead (k : N) : N := N.min ROUND_TRIP_TIMEOUT_MS (k / 2).

Lemma interval_some : forall r i, keepalive_send_interval r = Some i ->
  0 < rt_ka_ms r /\ i + ka_lead (rt_ka_ms r) = rt_ka_ms r /\ i <= rt_ka_ms r /\ (1 < rt_ka_ms r -> 0 < i).
Proof.
  intros r i H. unfold keepalive_send_interval in H. destruct (N.eqb_spec (rt_ka_ms r) 0) as [E|E]; [discriminate|].
  inversion H; subst; clear H. unfold ka_lead, ROUND_TRIP_TIMEOUT_MS.
  pose proof (half_bounds (rt_ka_ms r)) as B. revert B. generalize (rt_ka_ms r / 2). intros; lia.
Qed.

Lemma interval_none : forall r, keepalive_send_interval r = None <-> rt_ka_ms r = 0.
Proof.
  intros r. unfold keepalive_send_interval. destruct (N.eqb_spec (rt_ka_ms r) 0); split; intros; try discriminate; try assumption; try reflexivity; contradiction.
Qed.

(* the client's keep-alive is a whole number of seconds *)
Lemma interval_pos_seconds : forall r i secs, rt_ka_ms r = secs * 1000 -> keepalive_send_interval r = Some i -> 0 < i.
Proof.
  intros r i secs E H. destruct (interval_some r i H) as [Hp [_ [_ Hi]]]. apply Hi. lia.
Qed.

Lemma ka_lead_long : forall k, 2 * ROUND_TRIP_TIMEOUT_MS <= k -> ka_lead k = ROUND_TRIP_TIMEOUT_MS.
Proof. intros k H. unfold ka_lead, ROUND_TRIP_TIMEOUT_MS in *. pose proof (half_bounds k) as B. revert B. generalize (k / 2). intros; lia. Qed.

Lemma activity_ka : forall r now, rt_ka_ms (note_outbound_activity r now) = rt_ka_ms r.
Proof. reflexivity. Qed.
Lemma activity_timeout : forall r now, rt_ping_timeout (note_outbound_activity r now) = rt_ping_timeout r.
Proof. reflexivity. Qed.

Lemma activity_deadline : forall r now, 0 < rt_ka_ms r ->
  exists d, rt_next_ping (note_outbound_activity r now) = Some d /\ now <= d /\ d <= now + rt_ka_ms r
            /\ d + ka_lead (rt_ka_ms r) = now + rt_ka_ms r.
Proof.
  intros r now Hk. unfold note_outbound_activity. cbn [rt_next_ping rt_with_timers].
  destruct (keepalive_send_interval r) as [i|] eqn:E.
  - destruct (interval_some r i E) as [_ [H1 [H2 _]]]. exists (now + i). split; [reflexivity|]. lia.
  - apply interval_none in E. lia.
Qed.

Lemma activity_ka0 : forall r now, rt_ka_ms r = 0 -> rt_next_ping (note_outbound_activity r now) = None.
Proof.
  intros r now E. unfold note_outbound_activity. cbn [rt_next_ping rt_with_timers].
  apply interval_none in E. now rewrite E.
Qed.

(* K = 0: no ping is ever scheduled *)
Definition KA (s : session) : Prop := rt_ka_ms (s_rt s) = 0 -> rt_next_ping (s_rt s) = None.

Lemma KA_frame : forall s s', sess_frame s s' -> KA s -> KA s'.
Proof. intros s s' F H. unfold KA. rewrite (sf_ka_ms _ _ F), (sf_next_ping _ _ F). exact H. Qed.

Definition tframe (s s' : session) : Prop :=
  rt_ka_ms (s_rt s') = rt_ka_ms (s_rt s) /\ rt_next_ping (s_rt s') = rt_next_ping (s_rt s).

Lemma tframe_handle_packet : forall s p, tframe s (fst (handle_packet s p)).
Proof.
  intros s p. exact (conj (sf_ka_ms _ _ (handle_packet_frame s p)) (sf_next_ping _ _ (handle_packet_frame s p))).
Qed.

Lemma KA_complete_flush : forall s p now, KA (fst (complete_flush s p now)).
Proof.
  intros s p now. destruct (complete_flush_shape s p now) as [o ->]. intros H. cbn [set_rt s_rt] in *.
  rewrite activity_ka in H. apply activity_ka0. now destruct p as [[| | |]| |].
Qed.

Lemma KA_connack : forall s p now, KA s -> KA (fst (connack_process s p now)).
Proof.
  intros s p now H. destruct (connack_process s p now) as [s' cr] eqn:E.
  destruct (connack_cases _ _ _ _ _ E) as [[-> _]|[sp [rc [props [a [_ [_ [_ [-> _]]]]]]]]]; [exact H|].
  intros K. apply activity_ka0. exact K.
Qed.

Theorem KA_step : forall s l s', sstep s l s' -> KA s -> KA s'.
Proof.
  intros s l s' H K. destruct H; try exact K; try (intros _; reflexivity).
  - destruct (maybe_queue_pingreq s now) as [s' e] eqn:E.
    destruct (maybe_queue_pingreq_cases _ _ _ _ E) as [->|[o [_ [-> _]]]]; exact K.
  - destruct (set_written s p (w + n) len) as [s' b] eqn:E. rewrite (set_written_ob _ _ _ _ _ _ E). exact K.
  - apply KA_complete_flush.
  - eapply KA_frame; [apply handle_packet_frame|exact K].
  - eapply KA_frame; [eapply mid_frame, publish_middle_out, surjective_pairing|exact K].
  - eapply KA_frame; [eapply mid_frame, enqueue_middle_out, surjective_pairing|exact K].
  - eapply KA_frame; [eapply mid_frame, enqueue_middle_out, surjective_pairing|exact K].
  - intros H. cbn [set_rt s_rt] in *. rewrite activity_ka in H. now apply activity_ka0.
  - now apply KA_connack.
Qed.

Lemma KA_new : forall c, KA (session_new c).
Proof. intros c _. reflexivity. Qed.

Theorem ka0_no_ping : forall s now, KA s -> rt_ka_ms (s_rt s) = 0 ->
  should_queue_pingreq s now = false /\ maybe_queue_pingreq s now = (s, None).
Proof.
  intros s now K E. assert (H : should_queue_pingreq s now = false).
  { unfold should_queue_pingreq. rewrite (K E). now rewrite andb_false_r. }
  split; [exact H|now apply maybe_queue_pingreq_idle].
Qed.

Theorem ping_only_when_due : forall s now, should_queue_pingreq s now = true ->
  (exists d, rt_next_ping (s_rt s) = Some d /\ d <= now) /\ rt_ping_timeout (s_rt s) = None
  /\ has_pending_pingreq (s_ob s) = false.
Proof.
  intros s now H. unfold should_queue_pingreq in H.
  destruct (rt_ping_timeout (s_rt s)); [discriminate|]. destruct (rt_next_ping (s_rt s)) as [d|]; [|discriminate].
  cbn [andb] in H. destruct (N.leb_spec d now); [|discriminate]. cbn [andb] in H.
  split; [exists d; split; [reflexivity|assumption]|]. split; [reflexivity|]. now destruct (has_pending_pingreq _).
Qed.

Theorem ping_when_due : forall s now d, rt_next_ping (s_rt s) = Some d -> d <= now ->
  rt_ping_timeout (s_rt s) = None -> has_pending_pingreq (s_ob s) = false -> should_queue_pingreq s now = true.
Proof.
  intros s now d E L T P. unfold should_queue_pingreq. rewrite E, T, P.
  destruct (N.leb_spec d now); [reflexivity|lia].
Qed.

Theorem pingreq_flush_arms : forall s now,
  rt_ping_timeout (s_rt (fst (complete_flush s (FCtl CPing) now))) = Some (now + ROUND_TRIP_TIMEOUT_MS).
Proof. intros. destruct (complete_flush_shape s (FCtl CPing) now) as [o ->]. reflexivity. Qed.

Theorem other_flush_keeps_timeout : forall s p now, p <> FCtl CPing ->
  rt_ping_timeout (s_rt (fst (complete_flush s p now))) = rt_ping_timeout (s_rt s).
Proof.
  intros s p now Hp. destruct (complete_flush_shape s p now) as [o ->]. cbn [set_rt s_rt]. rewrite activity_timeout.
  destruct p as [[| | |]| |]; try reflexivity. contradiction.
Qed.

Theorem timed_out_iff : forall s now, ping_timed_out s now = true <-> exists d, rt_ping_timeout (s_rt s) = Some d /\ d <= now.
Proof.
  intros s now. unfold ping_timed_out. destruct (rt_ping_timeout (s_rt s)) as [d|].
  - destruct (N.leb_spec d now) as [Hle|Hlt]; split; intros H0; try reflexivity; try discriminate.
    + exists d. split; [reflexivity|assumption].
    + destruct H0 as [d' [E L]]. inversion E; subst. lia.
  - split; [discriminate|]. intros [d [E _]]. discriminate.
Qed.

Theorem no_timeout_before_bound : forall s tp now,
  now < tp + ROUND_TRIP_TIMEOUT_MS ->
  ping_timed_out (fst (complete_flush s (FCtl CPing) tp)) now = false.
Proof.
  intros s tp now L. destruct (ping_timed_out _ now) eqn:E; [|reflexivity].
  apply timed_out_iff in E. destruct E as [d [E1 E2]]. rewrite pingreq_flush_arms in E1. inversion E1; subst. lia.
Qed.

Theorem timeout_at_bound : forall s tp now,
  tp + ROUND_TRIP_TIMEOUT_MS <= now ->
  ping_timed_out (fst (complete_flush s (FCtl CPing) tp)) now = true.
Proof.
  intros s tp now L. apply timed_out_iff. exists (tp + ROUND_TRIP_TIMEOUT_MS). split; [apply pingreq_flush_arms|exact L].
Qed.

Theorem pingresp_clears : forall s now,
  rt_ping_timeout (s_rt (fst (handle_packet s RPingResp))) = None /\
  ping_timed_out (fst (handle_packet s RPingResp)) now = false /\
  snd (handle_packet s RPingResp) = HOk false.
Proof. intros. cbn [handle_packet fst snd]. unfold ping_timed_out. cbn [set_rt s_rt rt_with_timers rt_ping_timeout]. repeat split. Qed.

Lemma handle_packet_timeout : forall s p d,
  rt_ping_timeout (s_rt (fst (handle_packet s p))) = Some d -> rt_ping_timeout (s_rt s) = Some d.
Proof.
  intros s p d. destruct (handle_packet s p) as [s' hr] eqn:E. apply handle_packet_eff in E.
  destruct E; cbn [fst set_rt set_ob set_srv s_rt rt_with_timers quota_inc rt_with_quota rt_ping_timeout]; try exact (fun x => x). discriminate.
Qed.

Theorem deadline_is_earliest : forall r d, next_deadline r = Some d ->
  (forall x, rt_next_ping r = Some x -> d <= x) /\ (forall x, rt_ping_timeout r = Some x -> d <= x) /\
  (rt_next_ping r = Some d \/ rt_ping_timeout r = Some d).
Proof.
  intros r d H. unfold next_deadline in H.
  destruct (rt_next_ping r) as [a|], (rt_ping_timeout r) as [b|]; inversion H; subst; clear H.
  - split; [intros x E; inversion E; subst; lia|]. split; [intros x E; inversion E; subst; lia|].
    destruct (N.min_spec a b) as [[_ E]|[_ E]]; rewrite E; [left|right]; reflexivity.
  - split; [intros x E; inversion E; subst; lia|]. split; [discriminate|now left].
  - split; [discriminate|]. split; [intros x E; inversion E; subst; lia|now right].
Qed.

Theorem deadline_none : forall r, next_deadline r = None <-> rt_next_ping r = None /\ rt_ping_timeout r = None.
Proof.
  intros r. unfold next_deadline. destruct (rt_next_ping r), (rt_ping_timeout r); split; intros H; try discriminate; try (destruct H; discriminate); try reflexivity.
  split; reflexivity.
Qed.

Theorem service_disconnects_iff_timed_out : forall now w,
  ping_timed_out (w_sess w) now = true -> snd (service now w) = OFail EDisconnected.
Proof. intros now w H. unfold service. now rewrite H. Qed.

(* after a PINGREQ completes at tp:   next PINGREQ due at tp + K - lead,   timeout at tp + 5000.
   While the PINGREQ is outstanding no second one is queued; so if no other packet is sent the next completion
   is no earlier than the PINGRESP or tp + 5000.  For K >= 5 s that instant is within K of tp. *)
Theorem outstanding_blocks_ping : forall s tp now,
  should_queue_pingreq (fst (complete_flush s (FCtl CPing) tp)) now = false.
Proof.
  intros. unfold should_queue_pingreq. rewrite pingreq_flush_arms. reflexivity.
Qed.

Theorem timeout_within_keepalive : forall k tp, ROUND_TRIP_TIMEOUT_MS <= k -> tp + ROUND_TRIP_TIMEOUT_MS <= tp + k.
Proof. intros. lia. Qed.

(* for K >= 10 s the lead is the full round-trip bound, so by the time the next ping is due the outstanding one
   has been answered or has timed out: pings are never blocked *)
Theorem long_keepalive_never_blocked : forall s tp d,
  2 * ROUND_TRIP_TIMEOUT_MS <= rt_ka_ms (s_rt s) ->
  rt_next_ping (s_rt (fst (complete_flush s (FCtl CPing) tp))) = Some d ->
  tp + ROUND_TRIP_TIMEOUT_MS <= d /\ d <= tp + rt_ka_ms (s_rt s).
Proof.
  intros s tp d Hk. unfold complete_flush. destruct (flush_control _ _). cbn [fst set_rt s_rt].
  set (r1 := rt_with_timers (s_rt s) _ _).
  assert (Ek : rt_ka_ms r1 = rt_ka_ms (s_rt s)) by reflexivity.
  intros H. destruct (activity_deadline r1 tp) as [d' [E [L1 [L2 L3]]]]; [rewrite Ek; unfold ROUND_TRIP_TIMEOUT_MS in *; lia|].
  rewrite E in H. inversion H; subst. rewrite Ek, (ka_lead_long _ Hk) in L3. lia.
Qed.

(* the gap bound fails for K < 5 s (known finding K10).  K = 1 s: a PINGREQ completes at tp; until tp + 5000 (or a
   PINGRESP) no further PINGREQ is queued and no timeout fires: an idle client sends nothing for five keep-alives *)
Definition k10_session : session :=
  let s := session_new {| cf_rx := 64; cf_tx := 64; cf_client_id := []; cf_keepalive_s := 1; cf_expiry := 0;
                          cf_downgrade := false; cf_will := None; cf_auth := None |} in
  fst (complete_flush s (FCtl CPing) 1000).

Theorem keepalive_gap_refuted_small_k :
  rt_ka_ms (s_rt k10_session) = 1000 /\
  forall now, 1000 <= now -> now < 6000 ->
    should_queue_pingreq k10_session now = false /\ ping_timed_out k10_session now = false
    /\ next_step (s_ob k10_session) = None.
Proof.
  split; [reflexivity|]. intros now L1 L2. split; [reflexivity|]. split; [|reflexivity].
  unfold ping_timed_out. change (rt_ping_timeout (s_rt k10_session)) with (Some 6000).
  cbv beta iota. apply N.leb_gt. exact L2.
Qed.
