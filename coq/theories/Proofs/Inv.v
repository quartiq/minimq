(* Inv.v — the state invariant of the session (arena geometry, capacities, identifiers), the allocator of packet
   identifiers (`next_packet_id_spec`), and the closure of the invariant under every step of the session LTS. *)
From Coq Require Import Arith Lia.
From Minimq Require Import Util Effects Bytes Ser Arena Core Lts ArenaLemmas SerLemmas ArenaOps.


Definition ids (o : outbound) : list N := map re_pid (ob_ret o) ++ map le_pid (ob_rel o).

Definition id_ok (i : N) : Prop := 1 <= i <= 65535.

Record OInv (o : outbound) : Prop := {
  oi_arena : arena_wf o;
  oi_ret : glen (ob_ret o) <= 8;
  oi_rel : glen (ob_rel o) <= 8;
  oi_ctl : glen (ob_ctl o) <= 8;
  oi_nodup : NoDup (ids o);
  oi_range : Forall id_ok (ids o) }.

Lemma glen_of_map_eq : forall {A B} (f : A -> B) (l l' : list A), map f l' = map f l -> glen l' = glen l.
Proof. intros A B f l l' H. rewrite <- (glen_map f l'), <- (glen_map f l). now rewrite H. Qed.

Lemma glen_abs : forall o, glen (abs o) = glen (ob_ret o).
Proof. intros. apply glen_map. Qed.
Lemma abs_pids : forall o, map (fun a : aentry => fst (fst a)) (abs o) = map re_pid (ob_ret o).
Proof. intros. unfold abs. rewrite map_map. reflexivity. Qed.

Lemma OInv_new : forall cap, OInv (ob_new cap).
Proof.
  intros. constructor; cbn [ob_new ob_ret ob_rel ob_ctl ids map app glen]; try lia; try constructor.
  - cbn [wf_layout ob_ret ob_used ob_new]. lia.
  - cbn [ob_used ob_buf ob_new]. lia.
Qed.

Lemma OInv_clear : forall o, OInv (ob_clear o).
Proof.
  intros o. constructor; cbn [ob_clear ob_ret ob_rel ob_ctl ids map app glen]; try lia; try constructor.
  - cbn [wf_layout ob_ret ob_used ob_clear]. lia.
  - cbn [ob_used ob_buf ob_clear]. lia.
Qed.

(* the invariant reads the geometry of the arena, the identifiers and the length of the control queue only *)
Lemma OInv_same : forall o o', arena_wf o' ->
  map re_pid (ob_ret o') = map re_pid (ob_ret o) -> map le_pid (ob_rel o') = map le_pid (ob_rel o) ->
  glen (ob_ctl o') <= 8 -> OInv o -> OInv o'.
Proof.
  intros o o' A Hp Hr Hc [_ R L _ N F]. constructor; try assumption.
  - now rewrite (glen_of_map_eq re_pid _ _ Hp).
  - now rewrite (glen_of_map_eq le_pid _ _ Hr).
  - unfold ids. now rewrite Hp, Hr.
  - unfold ids. now rewrite Hp, Hr.
Qed.

Lemma OInv_compact : forall o, OInv o -> OInv (compact o).
Proof.
  intros o H. destruct (compact_spec o (oi_arena _ H)) as [C1 [_ [_ [_ [C5 [C6 [C7 _]]]]]]].
  apply (OInv_same o); try assumption; [now rewrite C6 | rewrite C5; apply H].
Qed.

Lemma wf_layout_ext : forall es es' lo used,
  map re_off es' = map re_off es -> map re_len es' = map re_len es -> wf_layout lo es used -> wf_layout lo es' used.
Proof.
  induction es as [|e t IH]; intros es' lo used H1 H2 W; destruct es' as [|e' t']; try discriminate; [exact W|].
  cbn [map wf_layout] in *. inversion H1; inversion H2. destruct W as [W1 [W2 W3]].
  rewrite H0, H4. repeat split; try assumption. now apply IH.
Qed.

Lemma OInv_states_only : forall o o', states_only o o' -> OInv o -> OInv o'.
Proof.
  intros o o' [Hb [Hu [Hp [Ho [Hl [Hr [_ Hc]]]]]]] H. destruct (oi_arena _ H) as [W U].
  apply (OInv_same o); try assumption.
  - split; [rewrite Hu; eapply wf_layout_ext; eassumption | now rewrite Hu, Hb].
  - eapply N.le_trans; [exact Hc | apply H].
Qed.

Lemma OInv_queue_control : forall o a o', OInv o -> queue_control o a = Some o' -> OInv o'.
Proof.
  intros o a o' H Q. destruct (queue_control_inv _ _ _ Q) as [-> E].
  apply (OInv_same o); try reflexivity; [apply H | | exact H].
  cbn [with_ctl ob_ctl]. rewrite glen_app. cbn [glen]. unfold MAX_PENDING_CONTROL in E. lia.
Qed.

Lemma OInv_mark_dup : forall o, OInv o -> OInv (mark_retained_dup o).
Proof.
  intros o H. destruct (mark_retained_dup_spec o (oi_arena _ H)) as [M1 [_ [M3 [M4 [M5 _]]]]].
  apply (OInv_same o); try assumption; [now rewrite M3 | now rewrite M5 | rewrite M4; apply H].
Qed.

Lemma OInv_arm_replay : forall o, OInv o -> OInv (arm_replay o).
Proof.
  intros o H. destruct (arm_replay_cases o) as [->|Hs]; [exact H|].
  eapply OInv_states_only; [exact Hs | now apply OInv_mark_dup].
Qed.

Lemma remove_first_rel_order : forall pid es es', remove_first_rel pid es = Some es' ->
  exists a x b, es = a ++ x :: b /\ es' = a ++ b /\ le_pid x = pid.
Proof.
  induction es as [|e t IH]; intros es' H; cbn [remove_first_rel] in H; [discriminate|].
  destruct (N.eqb_spec (le_pid e) pid) as [E|E].
  - inversion H; subst. exists [], e, es'. repeat split; reflexivity.
  - destruct (remove_first_rel pid t) as [t'|]; [|discriminate]. injection H as <-.
    destruct (IH t' eq_refl) as [a [x [b [H1 [H2 H3]]]]]. exists (e :: a), x, b. cbn [app]. now rewrite H1, H2.
Qed.
Lemma remove_first_ret_order : forall pid es es', remove_first_ret pid es = Some es' ->
  exists a x b, es = a ++ x :: b /\ es' = a ++ b /\ re_pid x = pid.
Proof.
  induction es as [|e t IH]; intros es' H; cbn [remove_first_ret] in H; [discriminate|].
  destruct (N.eqb_spec (re_pid e) pid) as [E|E].
  - inversion H; subst. exists [], e, es'. repeat split; reflexivity.
  - destruct (remove_first_ret pid t) as [t'|]; [|discriminate]. injection H as <-.
    destruct (IH t' eq_refl) as [a [x [b [H1 [H2 H3]]]]]. exists (e :: a), x, b. cbn [app]. now rewrite H1, H2.
Qed.
Lemma remove_first_ret_ids : forall pid es es', remove_first_ret pid es = Some es' ->
  exists a b, map re_pid es = a ++ pid :: b /\ map re_pid es' = a ++ b.
Proof.
  intros pid es es' H. destruct (remove_first_ret_order _ _ _ H) as [a [x [b [-> [-> <-]]]]].
  exists (map re_pid a), (map re_pid b). rewrite !map_app. split; reflexivity.
Qed.
Lemma remove_first_rel_ids : forall pid es es', remove_first_rel pid es = Some es' ->
  exists a b, map le_pid es = a ++ pid :: b /\ map le_pid es' = a ++ b.
Proof.
  intros pid es es' H. destruct (remove_first_rel_order _ _ _ H) as [a [x [b [-> [-> <-]]]]].
  exists (map le_pid a), (map le_pid b). rewrite !map_app. split; reflexivity.
Qed.

Lemma ids_remove : forall (a b : list N) x, NoDup (a ++ x :: b) -> Forall id_ok (a ++ x :: b) ->
  NoDup (a ++ b) /\ Forall id_ok (a ++ b) /\ ~ In x (a ++ b) /\ id_ok x.
Proof.
  intros a b x N F. destruct (NoDup_remove _ _ _ N) as [N1 N2]. pose proof (Forall_elt _ _ _ F) as Fx.
  rewrite Forall_app in F. destruct F as [F1 F2]. inversion F2; subst.
  refine (conj N1 (conj _ (conj N2 Fx))). apply Forall_app. now split.
Qed.
Lemma ids_insert : forall (a b : list N) x, NoDup (a ++ b) -> Forall id_ok (a ++ b) -> ~ In x (a ++ b) -> id_ok x ->
  NoDup (a ++ x :: b) /\ Forall id_ok (a ++ x :: b).
Proof.
  intros a b x N F Hx Hok. split; [apply (NoDup_Add (Add_app x a b)); now split|].
  rewrite Forall_app in *. destruct F as [F1 F2]. split; [assumption | now constructor].
Qed.

Lemma ack_packet_ids : forall o pid o', arena_wf o -> ack_packet o pid = (o', true) ->
  exists a b, ids o = a ++ pid :: b /\ ids o' = a ++ b /\ glen (ob_ret o') < glen (ob_ret o).
Proof.
  intros o pid o' A E. destruct (ack_packet_spec o pid o' true A E) as [_ [_ [Hr _]]].
  unfold ack_packet in E. destruct (remove_first_ret pid (ob_ret o)) as [es|] eqn:Er; [|discriminate].
  injection E as <-. destruct (remove_first_ret_ids _ _ _ Er) as [a [b [I1 I2]]].
  set (o1 := {| ob_buf := ob_buf o; ob_used := ob_used o; ob_ctl := ob_ctl o; ob_ret := es; ob_rel := ob_rel o |}) in *.
  assert (W1 : arena_wf o1).
  { destruct A as [W U]. split; [|exact U]. cbn [ob_ret ob_used o1]. eapply remove_first_ret_wf; eassumption. }
  assert (C7 : map re_pid (ob_ret (compact o1)) = map re_pid es) by apply (compact_spec o1 W1).
  exists a, (b ++ map le_pid (ob_rel o)). unfold ids. rewrite C7, Hr, I1, I2, <- !app_assoc. repeat split.
  rewrite (glen_of_map_eq re_pid _ _ C7), <- (glen_map re_pid es), I2, <- (glen_map re_pid (ob_ret o)), I1, !glen_app.
  cbn [glen]. lia.
Qed.

Lemma ack_packet_found : forall o pid o', OInv o -> ack_packet o pid = (o', true) ->
  OInv o' /\ ~ In pid (ids o') /\ id_ok pid.
Proof.
  intros o pid o' [A R L C N F] E.
  destruct (ack_packet_spec o pid o' true A E) as [A' [Hc [Hr _]]].
  destruct (ack_packet_ids o pid o' A E) as [a [b [I1 [I2 Hg]]]]. rewrite I1 in N, F.
  destruct (ids_remove _ _ _ N F) as [N' [F' [Hn Hok]]]. rewrite <- I2 in N', F', Hn.
  split; [|split; assumption]. constructor; try assumption; [lia | now rewrite Hr | now rewrite Hc].
Qed.

Lemma OInv_ack_packet : forall o pid, OInv o -> OInv (fst (ack_packet o pid)).
Proof.
  intros o pid H. destruct (ack_packet o pid) as [o' found] eqn:E. cbn [fst]. destruct found.
  - eapply ack_packet_found; eassumption.
  - destruct (ack_packet_spec o pid o' false (oi_arena _ H) E) as [_ [_ [_ [_ [-> _]]]]]. exact H.
Qed.

Lemma OInv_ack_release : forall o pid, OInv o -> OInv (fst (ack_release o pid)).
Proof.
  intros o pid [A R L C N F]. unfold ack_release.
  destruct (remove_first_rel pid (ob_rel o)) as [es|] eqn:Er; cbn [fst]; [|constructor; assumption].
  destruct (remove_first_rel_ids _ _ _ Er) as [a [b [I1 I2]]].
  unfold ids in N, F. rewrite I1, app_assoc in N, F. destruct (ids_remove _ _ _ N F) as [N' [F' _]].
  constructor; cbn [ob_ret ob_rel ob_ctl]; try assumption.
  - rewrite <- (glen_map le_pid es), I2. rewrite <- (glen_map le_pid (ob_rel o)), I1 in L.
    rewrite !glen_app in *. cbn [glen] in L. lia.
  - unfold ids. cbn [ob_ret ob_rel]. now rewrite I2, app_assoc.
  - unfold ids. cbn [ob_ret ob_rel]. now rewrite I2, app_assoc.
Qed.

Lemma OInv_queue_release : forall o pid rc o', OInv o -> queue_release o pid rc = Some o' ->
  ~ In pid (ids o) -> id_ok pid -> OInv o'.
Proof.
  intros o pid rc o' [A R L C N F] Q Hn Hok. destruct (queue_release_inv _ _ _ _ Q) as [-> E].
  unfold MAX_PENDING_RELEASE in E. rewrite <- (app_nil_r (ids o)) in N, F, Hn.
  destruct (ids_insert _ _ _ N F Hn Hok) as [N' F'].
  constructor; cbn [with_rel ob_ret ob_rel ob_ctl]; try assumption.
  - rewrite glen_app. cbn [glen]. lia.
  - unfold ids in *. cbn [with_rel ob_ret ob_rel]. now rewrite map_app, app_assoc.
  - unfold ids in *. cbn [with_rel ob_ret ob_rel]. now rewrite map_app, app_assoc.
Qed.

Lemma pid_in_use_In : forall o id, pid_in_use o id = true <-> In id (ids o).
Proof. intros. unfold pid_in_use, ids. now rewrite orb_true_iff, in_app_iff, has_retained_In, has_release_In. Qed.

(* the k-th identifier that the loop of `next_packet_id` tries, starting at the counter `cur` *)
Fixpoint cand (k : nat) (cur : N) : N := match k with O => cur | S k' => cand k' (pid_succ cur) end.

Lemma cand_add : forall a b x, cand (a + b) x = cand b (cand a x).
Proof. induction a as [|a IH]; intros b x; cbn [cand Nat.add]; [reflexivity | apply IH]. Qed.

(* fewer than 65535 successors from x: x + d, wrapped at most once (no division is needed to say so) *)
Lemma cand_near : forall d x, id_ok x -> N.of_nat d <= 65535 ->
  id_ok (cand d x) /\ (cand d x = x + N.of_nat d \/ cand d x + 65535 = x + N.of_nat d).
Proof.
  induction d as [|d IH]; intros x H Hd; cbn [cand].
  - split; [exact H | left; lia].
  - assert (Hs : id_ok (pid_succ x) /\ (pid_succ x = x + 1 \/ pid_succ x + 65535 = x + 1)).
    { unfold pid_succ, id_ok in *. destruct (N.eqb_spec x 65535); lia. }
    destruct Hs as [Hs Hc]. destruct (IH _ Hs ltac:(lia)) as [I1 I2]. split; [exact I1|]. unfold id_ok in *. lia.
Qed.

Lemma cand_distinct : forall cur k1 k2, id_ok cur -> (k1 < k2)%nat -> N.of_nat k2 < 65535 -> cand k1 cur <> cand k2 cur.
Proof.
  intros cur k1 k2 H L1 L2. replace k2 with (k1 + (k2 - k1))%nat by lia. rewrite cand_add.
  destruct (cand_near k1 cur H ltac:(lia)) as [H1 _]. destruct (cand_near (k2 - k1) _ H1 ltac:(lia)) as [_ H3].
  unfold id_ok in *. lia.
Qed.

Lemma pid_succ_ok : forall x, id_ok x -> id_ok (pid_succ x).
Proof. intros x H. apply (cand_near 1 x H). lia. Qed.

Lemma next_packet_id_go_spec : forall fuel o cur nxt id,
  next_packet_id_go fuel o cur = (nxt, id) ->
  exists k, (forall j, (j < k)%nat -> pid_in_use o (cand j cur) = true) /\
    ((k < fuel)%nat /\ id = cand k cur /\ nxt = pid_succ id /\ pid_in_use o id = false \/
     k = fuel /\ id = 0).
Proof.
  induction fuel as [|f IH]; intros o cur nxt id H; cbn [next_packet_id_go] in H.
  - injection H as <- <-. exists O. split; [intros j Hj; lia | now right].
  - destruct (pid_in_use o cur) eqn:E.
    + destruct (IH _ _ _ _ H) as [k [K1 K2]]. exists (S k). cbn [cand]. split.
      * intros [|j] Hj; cbn [cand]; [exact E | apply K1; lia].
      * destruct K2 as [[K2 K3]|[-> K3]]; [left; split; [lia | exact K3] | right; split; [reflexivity | exact K3]].
    + injection H as <- <-. exists O. split; [intros j Hj; lia | left]. cbn [cand]. repeat split; [lia | exact E].
Qed.

Lemma NoDup_map_inj_in : forall {A B} (f : A -> B) l,
  (forall a b, In a l -> In b l -> f a = f b -> a = b) -> NoDup l -> NoDup (map f l).
Proof.
  intros A B f l. induction l as [|x t IH]; intros Hinj Hn; cbn [map]; [constructor|].
  inversion Hn; subst. constructor.
  - rewrite in_map_iff. intros [y [Hy1 Hy2]]. assert (y = x) by (apply Hinj; [now right|now left|exact Hy1]).
    subst. contradiction.
  - apply IH; [|assumption]. intros a b Ha Hb. apply Hinj; now right.
Qed.

(* pigeonhole: 17 consecutive candidates are distinct, and at most 16 identifiers are in flight *)
Lemma candidate_free : forall o cur, OInv o -> id_ok cur ->
  ~ (forall j, (j < 17)%nat -> pid_in_use o (cand j cur) = true).
Proof.
  intros o cur HO Hp Hall. set (cs := map (fun k => cand k cur) (seq 0 17)).
  assert (Hnd : NoDup cs).
  { apply NoDup_map_inj_in; [|apply seq_NoDup]. intros a b Ha Hb Heq. rewrite in_seq in Ha, Hb.
    destruct (Nat.lt_trichotomy a b) as [L|[L|L]]; [|exact L|]; exfalso;
      [eapply (cand_distinct cur a b) | eapply (cand_distinct cur b a)]; eauto; lia. }
  assert (Hinc : incl cs (ids o)).
  { intros x Hx. apply in_map_iff in Hx. destruct Hx as [k [<- Hk]]. rewrite in_seq in Hk. apply pid_in_use_In, Hall. lia. }
  pose proof (NoDup_incl_length Hnd Hinc) as Hlen. unfold cs, ids in Hlen.
  rewrite map_length, seq_length, app_length, !map_length in Hlen.
  pose proof (oi_ret _ HO) as R. pose proof (oi_rel _ HO) as L. rewrite glen_length in R. rewrite glen_length in L. lia.
Qed.

(* the first candidate not in flight, in the cyclic order 1..65535 from the counter; the counter is left at its successor *)
Lemma next_packet_id_spec : forall s s' id, OInv (s_ob s) -> id_ok (s_pid s) -> next_packet_id s = (s', id) ->
  exists k, (k < 17)%nat /\ id = cand k (s_pid s) /\ s' = set_pid s (pid_succ id) /\ pid_in_use (s_ob s) id = false /\
    forall j, (j < k)%nat -> pid_in_use (s_ob s) (cand j (s_pid s)) = true.
Proof.
  intros s s' id HO Hp H. unfold next_packet_id in H.
  destruct (next_packet_id_go 17 (s_ob s) (s_pid s)) as [nxt i] eqn:E. injection H as <- <-.
  destruct (next_packet_id_go_spec _ _ _ _ _ E) as [k [K1 [[Hk [Hi [-> Hu]]]|[-> _]]]].
  - now exists k.
  - destruct (candidate_free _ _ HO Hp K1).
Qed.

Lemma next_packet_id_fresh : forall s s' id,
  OInv (s_ob s) -> id_ok (s_pid s) -> next_packet_id s = (s', id) ->
  id_ok id /\ ~ In id (ids (s_ob s)) /\ id_ok (s_pid s') /\ s' = set_pid s (s_pid s').
Proof.
  intros s s' id HO Hp H. destruct (next_packet_id_spec _ _ _ HO Hp H) as [k [Hk [-> [-> [Hu _]]]]].
  destruct (cand_near k _ Hp ltac:(lia)) as [Hi _].
  refine (conj Hi (conj _ (conj (pid_succ_ok _ Hi) eq_refl))). rewrite <- pid_in_use_In, Hu. discriminate.
Qed.

Lemma OInv_retain : forall o enc o1 off len pid o2,
  OInv o -> fits enc ->
  encode_at o enc = (o1, EOk off len) ->
  retain_packet o1 pid off len = Some o2 ->
  ~ In pid (ids o) -> id_ok pid ->
  OInv o2.
Proof.
  intros o enc o1 off len pid o2 [A R L C N F] Henc He Hr Hn Hok.
  destruct (encode_at_spec _ _ _ _ A Henc He) as [_ [A1 _]]. destruct (retain_packet_inv _ _ _ _ _ Hr) as [_ Hg].
  rewrite <- glen_abs, A1, glen_abs in Hg. unfold MAX_RETAINED in Hg.
  destruct (encode_retain_spec o enc o1 off len pid o2 A Henc He Hr) as [bs [A2 [Ab [_ [_ [Hc [Hl _]]]]]]].
  assert (Hp : map re_pid (ob_ret o2) = map re_pid (ob_ret o) ++ [pid]).
  { rewrite <- !abs_pids, Ab, map_app. reflexivity. }
  unfold ids in N, F, Hn. destruct (ids_insert _ _ _ N F Hn Hok) as [N' F'].
  constructor; try assumption.
  - rewrite <- glen_abs, Ab, glen_app, glen_abs. cbn [glen]. lia.
  - now rewrite Hl.
  - now rewrite Hc.
  - unfold ids. now rewrite Hp, Hl, <- app_assoc.
  - unfold ids. now rewrite Hp, Hl, <- app_assoc.
Qed.

Record Inv (s : session) : Prop := {
  inv_ob : OInv (s_ob s);
  inv_srv : glen (s_srv s) <= 8;
  inv_pid : id_ok (s_pid s) }.

Lemma Inv_init : forall c, Inv (session_new c).
Proof. intros. constructor; cbn [session_new s_ob s_srv s_pid glen]; [apply OInv_new | lia | unfold id_ok; lia]. Qed.

Lemma Inv_ob : forall s o, Inv s -> OInv o -> Inv (set_ob s o).
Proof. intros s o [H1 H2 H3] H. constructor; cbn [set_ob s_ob s_srv s_pid]; assumption. Qed.
Lemma Inv_rt : forall s r, Inv s -> Inv (set_rt s r).
Proof. intros s r [H1 H2 H3]. constructor; cbn [set_rt s_ob s_srv s_pid]; assumption. Qed.
Lemma Inv_reader : forall s r, Inv s -> Inv (set_reader s r).
Proof. intros s r [H1 H2 H3]. constructor; cbn [set_reader s_ob s_srv s_pid]; assumption. Qed.
Lemma Inv_srv : forall s l, Inv s -> glen l <= 8 -> Inv (set_srv s l).
Proof. intros s l [H1 H2 H3] H. constructor; cbn [set_srv s_ob s_srv s_pid]; assumption. Qed.
Lemma Inv_pid : forall s p, Inv s -> id_ok p -> Inv (set_pid s p).
Proof. intros s p [H1 H2 H3] H. constructor; cbn [set_pid s_ob s_srv s_pid]; assumption. Qed.

Lemma swap_remove_id_glen : forall id l l', swap_remove_id id l = Some l' -> glen l' <= glen l.
Proof.
  induction l as [|x t IH]; intros l' H; cbn [swap_remove_id] in H; [discriminate|].
  destruct (N.eqb x id).
  - destruct (rev t) as [|lst rinit] eqn:E.
    + inversion H; subst. cbn [glen]. lia.
    + inversion H; subst. cbn [glen]. rewrite !glen_length, rev_length.
      assert (length t = length (lst :: rinit)) by (rewrite <- E, rev_length; reflexivity).
      cbn [length] in *. lia.
  - destruct (swap_remove_id id t) as [t'|]; [|discriminate]. injection H as <-. cbn [glen].
    specialize (IH t' eq_refl). lia.
Qed.

Lemma Inv_hp : forall s p s', hp_eff s p s' -> Inv s -> Inv s'.
Proof.
  intros s p s' H I. pose proof (inv_ob _ I) as HO. pose proof (inv_srv _ I) as Hv. destruct H.
  - exact I.
  - apply Inv_srv; [apply Inv_ob; [exact I | eapply OInv_queue_control; eassumption]|].
    destruct H0 as [->|[[i Hs]|[i [-> [_ Hl]]]]]; [assumption| |].
    + pose proof (swap_remove_id_glen _ _ _ Hs). lia.
    + rewrite glen_app. cbn [glen]. unfold MAX_INBOUND_QOS2 in Hl. lia.
  - apply Inv_srv; [exact I|]. pose proof (swap_remove_id_glen _ _ _ H). lia.
  - apply Inv_ob; [exact I|]. eapply ack_packet_found; eassumption.
  - apply Inv_rt, Inv_ob; [exact I|]. eapply ack_packet_found; eassumption.
  - destruct (ack_packet_found _ _ _ HO H0) as [HO' [Hn Hok]]. apply Inv_ob; [exact I|].
    eapply OInv_queue_release; eassumption.
  - apply Inv_rt, Inv_ob; [exact I|]. pose proof (OInv_ack_release _ pid HO) as X. now rewrite H in X.
  - apply Inv_rt. exact I.
Qed.

Lemma enc_publish_fits : forall r cap off bs, enc_publish cap r = SOk off bs -> off + lenN bs <= cap /\ 2 <= lenN bs.
Proof. intros r cap off bs H. apply encode_chunks_payload_spec in H. tauto. Qed.
Lemma enc_subscribe_fits : forall r cap off bs, enc_subscribe cap r = SOk off bs -> off + lenN bs <= cap /\ 2 <= lenN bs.
Proof. intros r cap off bs H. apply encode_chunks_spec in H. tauto. Qed.
Lemma enc_unsubscribe_fits : forall r cap off bs, enc_unsubscribe cap r = SOk off bs -> off + lenN bs <= cap /\ 2 <= lenN bs.
Proof. intros r cap off bs H. apply encode_chunks_spec in H. tauto. Qed.

Lemma enc_publish_typed : forall r, typed (fun cap => enc_publish cap r) 3.
Proof. intros r cap off bs H. apply encode_chunks_payload_spec in H. destruct H as [_ [_ [_ [t Ht]]]]. now exists (publish_flags r), t. Qed.
Lemma enc_subscribe_typed : forall r, typed (fun cap => enc_subscribe cap r) 8.
Proof. intros r cap off bs H. apply encode_chunks_spec in H. destruct H as [_ [_ [_ [t Ht]]]]. now exists 2, t. Qed.
Lemma enc_unsubscribe_typed : forall r, typed (fun cap => enc_unsubscribe cap r) 10.
Proof. intros r cap off bs H. apply encode_chunks_spec in H. destruct H as [_ [_ [_ [t Ht]]]]. now exists 2, t. Qed.

Lemma encode_at_OInv : forall o enc, OInv o -> fits enc -> OInv (fst (encode_at o enc)) /\ ids (fst (encode_at o enc)) = ids o.
Proof.
  intros o enc H Hf.
  destruct (encode_at_spec _ _ _ _ (oi_arena _ H) Hf (surjective_pairing _)) as [A1 [Ab [_ [Hc [Hl _]]]]].
  assert (Hp : map re_pid (ob_ret (fst (encode_at o enc))) = map re_pid (ob_ret o)) by now rewrite <- !abs_pids, Ab.
  split; [|unfold ids; now rewrite Hp, Hl]. apply (OInv_same o); try assumption; [now rewrite Hl | rewrite Hc; apply H].
Qed.

Lemma req_enc_fits : forall dec e, req_enc dec e -> fits e.
Proof.
  intros dec e [r|r|r] cap off bs; [apply enc_publish_fits | apply enc_subscribe_fits | apply enc_unsubscribe_fits].
Qed.

Lemma Inv_mid : forall D dec live s s' m, mid_out (fun _ => req_enc dec) D dec live s s' m -> Inv s -> Inv s'.
Proof.
  intros D dec live s s' m H I. pose proof (inv_ob _ I) as HO.
  assert (Hid : forall p id, next_packet_id s = (set_pid s p, id) -> id_ok p /\ id_ok id /\ ~ In id (ids (s_ob s))).
  { intros p id Hn. destruct (next_packet_id_fresh _ _ _ HO (inv_pid _ I) Hn) as [H1 [H2 [H3 _]]]. exact (conj H3 (conj H1 H2)). }
  destruct H as [e _|e _ _|bs _ _ _ _|p id e Hn _|p id enc e Hn He _|p id enc o1 off len o2 k Hn He Ha _ Hr _].
  1: exact I.
  1, 2: apply Inv_ob; [exact I | now apply OInv_compact].
  - apply Inv_pid; [exact I | apply (Hid _ _ Hn)].
  - apply Inv_ob; [apply Inv_pid; [exact I | apply (Hid _ _ Hn)] | apply encode_at_OInv; [exact HO | exact (req_enc_fits _ _ He)]].
  - destruct (Hid _ _ Hn) as [Hp [Hok Hi]].
    pose proof (OInv_retain _ _ _ _ _ _ _ HO (req_enc_fits _ _ He) Ha Hr Hi Hok).
    destruct dec; [apply Inv_rt|]; (apply Inv_ob; [now apply Inv_pid | assumption]).
Qed.

Lemma set_written_states : forall s p w len, states_only (s_ob s) (s_ob (fst (set_written s p w len))).
Proof.
  intros. unfold set_written. destruct p as [a|pid|pid];
    [pose proof (set_control_written_states (s_ob s) a w len) as H; destruct (set_control_written _ _ _ _)
    |pose proof (set_release_written_states (s_ob s) pid w len) as H; destruct (set_release_written _ _ _ _)
    |pose proof (set_retained_written_states (s_ob s) pid w len) as H; destruct (set_retained_written _ _ _ _)]; exact H.
Qed.
Lemma complete_flush_states : forall s p now, states_only (s_ob s) (s_ob (fst (complete_flush s p now))).
Proof.
  intros. unfold complete_flush. destruct p as [a|pid|pid];
    [pose proof (flush_control_states (s_ob s) a) as H; destruct (flush_control _ _)
    |pose proof (flush_release_states (s_ob s) pid) as H; destruct (flush_release _ _)
    |pose proof (flush_retained_states (s_ob s) pid) as H; destruct (flush_retained _ _)]; exact H.
Qed.

Lemma Inv_data_reset : forall s, Inv (data_reset s).
Proof.
  intros s. constructor; cbn [data_reset s_ob s_srv s_pid glen]; [|lia|unfold id_ok; lia].
  apply OInv_clear.
Qed.

Lemma Inv_connack_ok : forall s sp a now, Inv s -> Inv (connack_ok s sp a now).
Proof.
  intros s sp a now H.
  assert (H1 : Inv (if sp then s else data_reset s)) by (destruct sp; [exact H | apply Inv_data_reset]).
  destruct H1 as [A B C]. constructor; assumption.
Qed.

Lemma OInv_ob : forall s o, ob_eff s o -> OInv (s_ob s) -> OInv o.
Proof.
  intros s o H HO. destruct H.
  - exact HO.
  - now apply OInv_arm_replay.
  - now apply OInv_compact.
  - eapply OInv_queue_control; eassumption.
  - eapply OInv_states_only; [apply set_written_states | exact HO].
  - eapply OInv_states_only; [apply complete_flush_states | exact HO].
Qed.

Theorem Inv_step : forall s l s', sstep s l s' -> Inv s -> Inv s'.
Proof.
  intros s l s' H I. destruct (sstep_seff _ _ _ H).
  - apply Inv_reader, Inv_rt, Inv_ob; [exact I | eapply OInv_ob, I; eassumption].
  - eapply Inv_hp, I. eapply handle_packet_eff, surjective_pairing.
  - eapply Inv_mid; eassumption.
  - now apply Inv_connack_ok.
  - now apply Inv_pid.
Qed.
