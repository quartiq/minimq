(* Healthy.v — C16, the outbound half of quiescence: on a behaving transport (every write accepted whole, every
   flush succeeding), a live connection without a broker packet-size limit on which no PINGREQ is due, drive() writes and
   flushes EVERYTHING that is queued — owed acknowledgements, pending PUBRELs, retained packets to (re)send — and
   returns with nothing left to write.  Termination comes from the measure of Terminate.v; what is added here is that
   on such a transport no step can end in an error, a dropped future or a lost entry. *)
From Coq Require Import List NArith Lia String.
From Minimq Require Import Bytes Varint Ser Reader Arena Core Show Machine Run.
From Minimq Require Import Util Shapes Refine Inv Status Frames WireInv Wire Engine Terminate KeepAlive Io ConnectOk PingQuiet.
Import ListNotations.
Open Scope N_scope.

Definition Hl (w : world) : Prop :=
  w_script w = [] /\ w_live w = true /\ WInv (w_sess w) /\ rt_mps (s_rt (w_sess w)) = None /\
  rt_next_ping (s_rt (w_sess w)) = None /\ rt_ping_timeout (s_rt (w_sess w)) = None /\ rt_ka_ms (s_rt (w_sess w)) = 0.


(* the entry the engine chose is found again by the bookkeeping *)
Definition has_key (o : outbound) (k : fpkt) : bool :=
  match k with
  | FCtl a => existsb (fun e => caction_eqb (ce_act e) a) (ob_ctl o)
  | FRel pid => existsb (fun e => N.eqb (le_pid e) pid) (ob_rel o)
  | FRet pid => existsb (fun e => N.eqb (re_pid e) pid) (ob_ret o)
  end.

Lemma has_key_step : forall o st, next_step o = Some st -> has_key o (pkt_of st) = true.
Proof.
  intros o st H. pose proof (next_step_entry _ _ H) as He. destruct st as [a s0|pid rc s0|pid off l s0]; cbn [pkt_of has_key];
    apply existsb_exists.
  - destruct He as [e [Hi [Ha _]]]. exists e. split; [exact Hi|]. rewrite Ha. apply caction_eqb_same.
  - destruct He as [e [Hi [Hp _]]]. exists e. split; [exact Hi|]. rewrite Hp. apply N.eqb_refl.
  - destruct He as [e [Hi [Hp _]]]. exists e. split; [exact Hi|]. rewrite Hp. apply N.eqb_refl.
Qed.

Lemma set_written_found : forall s k x len, snd (set_written s k x len) = has_key (s_ob s) k.
Proof.
  intros s k x len. unfold set_written. destruct k as [a|pid|pid];
    [unfold set_control_written|unfold set_release_written|unfold set_retained_written];
    match goal with |- context [update_first ?p ?f ?l] => pose proof (update_first_snd p f l) as F; destruct (update_first p f l) end;
    exact F.
Qed.

Lemma complete_flush_found : forall s k now, snd (complete_flush s k now) = has_key (s_ob s) k.
Proof.
  intros s k now. unfold complete_flush. destruct k as [a|pid|pid];
    [unfold flush_control|unfold flush_release|unfold flush_retained];
    match goal with |- context [update_first ?p ?f ?l] => pose proof (update_first_snd p f l) as F; destruct (update_first p f l) end;
    exact F.
Qed.

Lemma has_key_set_written : forall s k x len, has_key (s_ob (fst (set_written s k x len))) k = has_key (s_ob s) k.
Proof.
  intros s k x len. rewrite set_written_put. destruct k as [a|pid|pid]; cbn [put has_key with_ctl with_rel with_ret ob_ctl ob_rel ob_ret];
    apply update_first_existsb; reflexivity.
Qed.

(* what the automatic broker owns of a world *)
Definition broker_view (w : world) : N * bytes * list (N * bytes) * N := (w_broker w, w_txbuf w, w_inq w, w_last_arrival w).

Lemma broker_feed_ext : forall x w a, broker_view x = broker_view w -> w_now x = w_now w ->
  broker_view (broker_feed x a) = broker_view (broker_feed w a).
Proof.
  intros x w a Hv Hn. unfold broker_view in Hv. injection Hv as Hb Ht Hi Hl.
  unfold broker_feed. rewrite Hb, Ht. destruct (N.eqb (w_broker w) 0).
  - unfold broker_view. now rewrite Hb, Ht, Hi, Hl.
  - destruct (broker_split _ _ _ _) as [replies rest]. destruct replies as [|r0 rs]; unfold broker_view;
      cbn [w_broker w_txbuf w_inq w_last_arrival w_now upd_txbuf upd_inq]; rewrite ?Hb, ?Hi, ?Hl, ?Hn; reflexivity.
Qed.

Lemma io_write_healthy : forall w bs, w_script w = [] -> bs <> [] -> lenN bs <= BIG ->
  exists w1, io_write bs w = (w1, WOk (lenN bs)) /\
    w_sess w1 = w_sess w /\ w_script w1 = [] /\ w_live w1 = w_live w /\ w_now w1 = w_now w /\ w_wire w1 = w_wire w ++ bs /\
    broker_view w1 = broker_view (broker_feed w bs).
Proof.
  intros w bs Hs Hne Hl. destruct (io_write_nil_other bs w Hs Hne Hl) as [R [S [N W]]]. pose proof (io_write_frame bs w) as F.
  pose proof (io_write_nil bs w Hs Hne Hl) as E. destruct (io_write bs w) as [w1 r]. cbn [fst snd] in *. subst r.
  exists w1. split; [reflexivity|]. rewrite (fr_sess _ _ F), (fr_live _ _ F). repeat split; try assumption.
  injection E as ->. apply broker_feed_ext; reflexivity.
Qed.

Definition okst (st : sstate) : Prop := match st with SWrite w => w = 0 | _ => True end.
Definition Fr (o : outbound) : Prop :=
  Forall (fun e => okst (ce_st e)) (ob_ctl o) /\ Forall (fun e => okst (le_st e)) (ob_rel o) /\ Forall (fun e => okst (re_st e)) (ob_ret o).

Lemma okst_partial : forall st, okst st <-> sstate_partial st = false.
Proof. intros [w| |]; cbn; [|tauto|tauto]. rewrite negb_false_iff, N.eqb_eq. reflexivity. Qed.

(* Fr is the model's `has_partial = false` (and WireInv's `npart = 0`) written as a property of every entry *)
Lemma Fr_has_partial : forall o, Fr o <-> has_partial o = false.
Proof.
  assert (G : forall {A} (st : A -> sstate) l, Forall (fun e => okst (st e)) l <-> existsb (fun e => sstate_partial (st e)) l = false).
  { intros A st. induction l as [|x t IH]; cbn [existsb]; [split; [reflexivity|constructor]|].
    rewrite orb_false_iff, <- IH, <- okst_partial. split; [intros H; inversion H; auto|intros [? ?]; constructor; assumption]. }
  intros o. unfold Fr, has_partial. rewrite !orb_false_iff, <- !G. tauto.
Qed.

Lemma Fr_items : forall o, Fr o <-> Forall (fun i => okst (fst i)) (items o).
Proof. intros o. unfold Fr, items. rewrite !Forall_app, !Forall_map. reflexivity. Qed.

Lemma okst_focus : forall (pre post mid : list item) i bs, Forall (fun i => okst (fst i)) (pre ++ i :: post) ->
  mid = [] \/ mid = [(SSent, bs)] -> Forall (fun i => okst (fst i)) (pre ++ mid ++ post).
Proof.
  intros pre post mid i bs H Hm. apply Forall_app in H as [Hpre Hpost]. inversion Hpost; subst.
  rewrite !Forall_app. split; [exact Hpre|split; [|assumption]]. destruct Hm as [->| ->]; repeat constructor.
Qed.

Lemma Fr_written : forall s st p bs w len x now,
  WInv s -> next_step (s_ob s) = Some st -> prepare_step s st = PWrite p bs w len -> Fr (s_ob s) ->
  Fr (s_ob (fst (complete_flush (fst (set_written s p x len)) p now))).
Proof.
  intros s st p bs w len x now I Hn Hp HF.
  destruct (write_focus s st p bs w len (WInv_served _ I) Hn Hp) as [pre [post [E0 [_ [Hfl _]]]]].
  destruct (Hfl x now) as [mid [Hm E]]. apply Fr_items. apply Fr_items in HF. rewrite E. rewrite E0 in HF.
  exact (okst_focus _ _ _ _ _ HF Hm).
Qed.

Lemma Fr_flushed : forall s st p now,
  WInv s -> next_step (s_ob s) = Some st -> prepare_step s st = PFlush p -> Fr (s_ob s) -> Fr (s_ob (fst (complete_flush s p now))).
Proof.
  intros s st p now I Hn Hp HF.
  destruct (flush_focus s st p (WInv_served _ I) Hn Hp) as [pre [post [bs [mid [E0 [Hm [E _]]]]]]].
  apply Fr_items. apply Fr_items in HF. rewrite E. rewrite E0 in HF. exact (okst_focus _ _ _ _ _ HF Hm).
Qed.

Lemma Fr_step_state : forall o st, Fr o -> next_step o = Some st -> step_state st = SWrite 0 \/ step_state st = SFlush.
Proof.
  intros o st [Fc [Fl Ft]] H. pose proof (next_step_not_sent _ _ H) as Hns. pose proof (next_step_entry _ _ H) as He.
  assert (G : forall s0, okst s0 -> s0 <> SSent -> s0 = SWrite 0 \/ s0 = SFlush).
  { intros [w| |] Hk Hn; [left; cbn in Hk; now subst|right; reflexivity|congruence]. }
  destruct st as [a s0|pid rc s0|pid off l s0]; cbn [step_state] in *.
  - destruct He as [e [Hi [_ Hs]]]. rewrite Forall_forall in Fc. specialize (Fc e Hi). rewrite Hs in Fc. now apply G.
  - destruct He as [e [Hi [_ [_ Hs]]]]. rewrite Forall_forall in Fl. specialize (Fl e Hi). rewrite Hs in Fl. now apply G.
  - destruct He as [e [Hi [_ [_ [_ Hs]]]]]. rewrite Forall_forall in Ft. specialize (Ft e Hi). rewrite Hs in Ft. now apply G.
Qed.

From Minimq Require Import Reconnect.

Lemma prepare_fresh : forall s st, rt_mps (s_rt s) = None -> step_state st = SWrite 0 ->
  exists bs len, prepare_step s st = PWrite (pkt_of st) bs 0 len.
Proof.
  intros s st Hm Hs. destruct st as [a s0|pid rc s0|pid off l s0]; cbn [step_state] in Hs; subst s0; cbn [prepare_step pkt_of]; rewrite Hm.
  - destruct (encode_control_ok a) as [off [bs E]]. rewrite E. cbn [too_large]. eexists _, _. reflexivity.
  - unfold encode_pubrel. destruct (enc_ack_ok 6 pid rc) as [off [bs E]]. rewrite E. cbn [too_large]. eexists _, _. reflexivity.
  - cbn [too_large]. eexists _, _. reflexivity.
Qed.

Lemma prepare_awaiting : forall s st, step_state st = SFlush -> prepare_step s st = PFlush (pkt_of st).
Proof. intros s st Hs. destruct st as [a s0|pid rc s0|pid off l s0]; cbn [step_state] in Hs; subst s0; reflexivity. Qed.

(* the invariant of the healthy drive.  Hc: its transport-and-queue part; PQ (PingQuiet.v): no PINGREQ is to be queued now;
   the ping timeout, if one is armed by flushing a PINGREQ, lies ahead *)
Definition Hc (w : world) : Prop :=
  w_script w = [] /\ w_live w = true /\ WInv (w_sess w) /\ rt_mps (s_rt (w_sess w)) = None /\
  (forall d, rt_ping_timeout (s_rt (w_sess w)) = Some d -> w_now w < d) /\
  lenN (ob_buf (s_ob (w_sess w))) <= BIG /\ Fr (s_ob (w_sess w)).
Definition Hd (w : world) : Prop := Hc w /\ PQ w.

Lemma complete_flush_rt : forall s k now, rt_mps (s_rt s) = None ->
  (forall d, rt_ping_timeout (s_rt s) = Some d -> now < d) ->
  let s' := fst (complete_flush s k now) in
  rt_mps (s_rt s') = None /\ (forall d, rt_ping_timeout (s_rt s') = Some d -> now < d) /\
  lenN (ob_buf (s_ob s')) = lenN (ob_buf (s_ob s)).
Proof.
  intros s k now Hm Hp. cbv zeta. split; [|split].
  - destruct (complete_flush_shape s k now) as [o ->]. destruct k as [[| | |]| |]; exact Hm.
  - intros d. destruct k as [[| | |]| |]; rewrite ?pingreq_flush_arms, ?other_flush_keeps_timeout by discriminate; try apply Hp.
    intros [= <-]. unfold ROUND_TRIP_TIMEOUT_MS. lia.
  - rewrite complete_flush_put. destruct k; reflexivity.
Qed.

Lemma prepared_len_small : forall s st bs len, WInv s -> lenN (ob_buf (s_ob s)) <= BIG ->
  next_step (s_ob s) = Some st -> prepare_step s st = PWrite (pkt_of st) bs 0 len -> lenN bs <= BIG.
Proof.
  intros s st bs len I HB Hn Hp. destruct (engine_tail s st _ bs 0 len 0 I Hn Hp) as [_ [Hlen _]].
  destruct (prepare_write_inv _ _ _ _ _ _ Hp) as [_ [_ Hm]]. destruct st as [a s0|pid rc s0|pid off l s0].
  - destruct Hm as [_ [_ [off E]]]. pose proof (encode_control_len _ _ _ E). unfold BIG. lia.
  - destruct Hm as [_ [_ [off E]]]. pose proof (enc_ack_len _ _ _ _ _ E). unfold BIG. lia.
  - destruct Hm as [_ [-> _]]. pose proof (next_step_entry _ _ Hn) as [e [Hi [_ [_ [Hl _]]]]].
    destruct I as [Iv _]. destruct (oi_arena _ (inv_ob _ Iv)) as [Wl Wu].
    pose proof (wf_layout_bound _ _ _ _ Wl Hi). rewrite Hlen. lia.
Qed.

Lemma healthy_flush : forall k now w, w_script w = [] -> w_live w = true -> has_key (s_ob (w_sess w)) k = true ->
  flush_current k now w =
  (upd_sess (upd_log (upd_script w []) (s2t "f ok"%string)) (fst (complete_flush (w_sess w) k now)), ODone true).
Proof.
  intros k now w Hs Hl Hk. unfold flush_current. rewrite Hl. cbn [negb]. rewrite (io_flush_nil w Hs).
  cbn [w_sess upd_log upd_script]. pose proof (complete_flush_found (w_sess w) k now) as F. rewrite Hk in F.
  destruct (complete_flush (w_sess w) k now) as [s f]. cbn [snd fst] in *. subst f. reflexivity.
Qed.

Lemma whole_write : forall st k bs len now w w1, w_live w = true ->
  prepare_step (w_sess w) st = PWrite k bs 0 len -> len <> 0 -> has_key (s_ob (w_sess w)) k = true ->
  io_write bs w = (w1, WOk len) -> w_sess w1 = w_sess w ->
  perform_outbound_step st now w = flush_current k now (upd_sess w1 (fst (set_written (w_sess w) k (0 + len) len))).
Proof.
  intros st k bs len now w w1 Hl Hp Hne Hk Ew S1. unfold perform_outbound_step. rewrite Hp, Hl. cbn [negb].
  rewrite dropN_0, Ew, (proj2 (N.eqb_neq len 0) Hne), S1.
  pose proof (set_written_found (w_sess w) k (0 + len) len) as Hf. rewrite Hk in Hf.
  destruct (set_written (w_sess w) k (0 + len) len) as [s2 f2]. cbn [snd fst] in *. subst f2. cbn [negb].
  now rewrite N.add_0_l, N.ltb_irrefl.
Qed.

Lemma Hc_flushed : forall w k l, w_live w = true -> rt_mps (s_rt (w_sess w)) = None ->
  (forall d, rt_ping_timeout (s_rt (w_sess w)) = Some d -> w_now w < d) -> lenN (ob_buf (s_ob (w_sess w))) <= BIG ->
  let s' := fst (complete_flush (w_sess w) k (w_now w)) in
  WInv s' -> Fr (s_ob s') -> Hc (upd_sess (upd_log (upd_script w []) l) s').
Proof.
  intros w k l Hl Hm Hpt HB s' I' F'. destruct (complete_flush_rt (w_sess w) k (w_now w) Hm Hpt) as [M [T B]]. fold s' in M, T, B.
  unfold Hc. cbn [w_script w_live w_sess w_now upd_sess upd_log upd_script]. rewrite B. auto 8.
Qed.

Theorem healthy_perform_core : forall st w, Hc w -> next_step (s_ob (w_sess w)) = Some st ->
  exists w', perform_outbound_step st (w_now w) w = (w', ODone true) /\ Hc w' /\
    s_reader (w_sess w') = s_reader (w_sess w) /\ w_now w' = w_now w /\
    (step_state st = SWrite 0 -> exists len,
       w_sess w' = fst (complete_flush (fst (set_written (w_sess w) (pkt_of st) (0 + len) len)) (pkt_of st) (w_now w))) /\
    (forall bs len, prepare_step (w_sess w) st = PWrite (pkt_of st) bs 0 len -> broker_view w' = broker_view (broker_feed w bs)).
Proof.
  intros st w [Hs [Hl [I [Hm [Hpt [HB HF]]]]]] Hn.
  assert (Hwq : WInv (w_sess (fst (perform_outbound_step st (w_now w) w)))).
  { eapply WInv_wq; [apply perform_outbound_step_wq; exact Hn|exact I]. }
  pose proof (has_key_step _ _ Hn) as Hkey.
  destruct (Fr_step_state _ _ HF Hn) as [Hst|Hst].
  - (* unsent: one write takes it whole, then the flush *)
    destruct (prepare_fresh (w_sess w) st Hm Hst) as [bs [len Hp]].
    destruct (prepared_frame _ _ _ _ _ _ I Hn Hp) as [Hlen [first Hfr]]. pose proof (frame_len _ _ Hfr) as H2.
    destruct (io_write_healthy w bs Hs ltac:(intros E; rewrite E, lenN_nil in H2; lia) (prepared_len_small _ _ _ _ I HB Hn Hp))
      as [w1 [Ew [S1 [C1 [L1 [N1 [_ V1]]]]]]].
    rewrite Hlen in Ew. set (s2 := fst (set_written (w_sess w) (pkt_of st) (0 + len) len)).
    destruct (set_written_fields (w_sess w) (pkt_of st) (0 + len) len) as [Rt2 Bf2]. fold s2 in Rt2, Bf2.
    rewrite (whole_write st _ bs len (w_now w) w w1 Hl Hp ltac:(lia) Hkey Ew S1) in Hwq |- *. fold s2 in Hwq |- *.
    rewrite (healthy_flush (pkt_of st) (w_now w) (upd_sess w1 s2) C1 (eq_trans L1 Hl)
               ltac:(unfold s2; cbn [w_sess upd_sess]; rewrite has_key_set_written; exact Hkey)) in Hwq |- *.
    cbn [fst w_sess upd_sess] in Hwq |- *. eexists. split; [reflexivity|]. split.
    + pose proof (Hc_flushed (upd_sess w1 s2) (pkt_of st)) as G. cbn [w_script w_live w_sess w_now upd_sess] in G.
      rewrite Rt2, Bf2, N1 in G. exact (G _ (eq_trans L1 Hl) Hm Hpt HB Hwq (Fr_written _ _ _ _ _ _ _ _ I Hn Hp HF)).
    + cbn [w_sess w_now upd_sess upd_log upd_script]. split; [unfold s2; now rewrite complete_flush_reader, set_written_reader|].
      split; [exact N1|]. split; [intros _; now exists len|]. intros bs' len' Hp'. rewrite Hp in Hp'. injection Hp' as <- _. exact V1.
  - (* written, awaiting its flush *)
    pose proof (prepare_awaiting (w_sess w) st Hst) as Hp. unfold perform_outbound_step in Hwq |- *.
    rewrite Hp, (healthy_flush (pkt_of st) (w_now w) w Hs Hl Hkey) in Hwq |- *. cbn [fst w_sess upd_sess] in Hwq.
    eexists. split; [reflexivity|]. split; [exact (Hc_flushed w _ _ Hl Hm Hpt HB Hwq (Fr_flushed _ _ _ _ I Hn Hp HF))|].
    cbn [w_sess w_now upd_sess upd_log upd_script]. split; [apply complete_flush_reader|]. split; [reflexivity|].
    split; [intros E; rewrite Hst in E; discriminate E|]. intros bs' len' Hp'. discriminate Hp'.
Qed.

Theorem healthy_perform : forall st w, Hd w -> next_step (s_ob (w_sess w)) = Some st ->
  exists w', perform_outbound_step st (w_now w) w = (w', ODone true) /\ Hd w' /\
    s_reader (w_sess w') = s_reader (w_sess w) /\ w_now w' = w_now w.
Proof.
  intros st w [Hcw Hq] Hn. destruct (healthy_perform_core st w Hcw Hn) as [w' [E [Hc' [R [N _]]]]].
  exists w'. split; [exact E|]. split; [|split; assumption]. split; [exact Hc'|].
  exact (proj1 (step_pq _ _ _ _ Hq E Logic.I)).
Qed.

Lemma Hd_service : forall w, Hd w ->
  ping_timed_out (w_sess w) (w_now w) = false /\ maybe_queue_pingreq (w_sess w) (w_now w) = (w_sess w, None).
Proof.
  intros w [[_ [_ [_ [_ [Hpt _]]]]] Hq]. split.
  - unfold ping_timed_out. destruct (rt_ping_timeout (s_rt (w_sess w))) as [d|] eqn:E; [|reflexivity].
    specialize (Hpt d eq_refl). apply N.leb_gt. exact Hpt.
  - exact (pq_no_ping w Hq).
Qed.

Theorem drive_loop_drains : forall fuel adv w, Hd w -> NA w -> M (w_sess w) < N.of_nat fuel ->
  exists w' pr, drive_loop fuel adv w = (w', ODone pr) /\
    pr = (if adv || match next_step (s_ob (w_sess w)) with Some _ => true | None => false end then PrAdvanced else PrIdle) /\
    next_step (s_ob (w_sess w')) = None /\ Hd w' /\ NA w' /\ w_now w' = w_now w.
Proof.
  induction fuel as [|f IH]; intros adv w Hh Hna Hm; [cbn in Hm; lia|].
  destruct (Hd_service w Hh) as [Ht _]. pose proof (proj1 (proj2 Hh)) as Hq.
  destruct (next_step (s_ob (w_sess w))) as [st|] eqn:En.
  - destruct (healthy_perform st w Hh En) as [w2 [E2 [H2 [R2 N2]]]].
    rewrite (drive_loop_step f adv w st w2 Hna Ht Hq En E2), orb_true_r.
    assert (I : WInv (w_sess w)) by (destruct Hh as [[_ [_ [I _]]] _]; exact I).
    pose proof (step_M _ _ _ _ I En E2) as Hdec.
    assert (Na2 : NA w2) by (unfold NA; rewrite R2; exact Hna).
    destruct (next_step (s_ob (w_sess w2))) as [st2|] eqn:En2.
    + destruct (IH true w2 H2 Na2 ltac:(lia)) as [w' [pr [E' [Hpr [Hn' [Hd' [Na' Nw']]]]]]].
      exists w', pr. rewrite Nw'. exact (conj E' (conj Hpr (conj Hn' (conj Hd' (conj Na' N2))))).
    + exists w2, PrAdvanced. exact (conj eq_refl (conj eq_refl (conj En2 (conj H2 (conj Na2 N2))))).
  - rewrite (drive_loop_quiet f adv w Hna Ht Hq En), orb_false_r. exists w, (if adv then PrAdvanced else PrIdle).
    exact (conj eq_refl (conj eq_refl (conj En (conj Hh (conj Hna eq_refl))))).
Qed.

Theorem drive_sends_all : forall fuel w, Hd w -> NA w -> M (w_sess w) < N.of_nat fuel ->
  exists w', op_drive fuel w = (w', ODone None) /\ next_step (s_ob (w_sess w')) = None /\ Hd w' /\ NA w'.
Proof.
  intros fuel w Hh Hna Hm. unfold op_drive, drive_packet.
  assert (Hl : w_live w = true) by (destruct Hh as [[_ [Hl _]] _]; exact Hl). rewrite Hl. cbn [negb].
  destruct (drive_loop_drains fuel false w Hh Hna Hm) as [w' [pr [E [Hpr [Hn [Hd' [Na' _]]]]]]]. rewrite E.
  exists w'. split; [rewrite Hpr; destruct (false || _); reflexivity|]. split; [exact Hn|]. split; [exact Hd'|exact Na'].
Qed.

Theorem poll_sends_all : forall fuel w st, Hd w -> NA w -> next_step (s_ob (w_sess w)) = Some st -> M (w_sess w) < N.of_nat (S fuel) ->
  exists w', op_poll (S fuel) w = (w', ODone None) /\ next_step (s_ob (w_sess w')) = None /\ Hd w' /\ NA w'.
Proof.
  intros fuel w st Hh Hna Hn Hm. unfold op_poll. cbn [wait_for_progress]. unfold drive_packet.
  assert (Hl : w_live w = true) by (destruct Hh as [[_ [Hl _]] _]; exact Hl). rewrite Hl. cbn [negb].
  destruct (drive_loop_drains (S fuel) false w Hh Hna Hm) as [w' [pr [E [Hpr [Hn' [Hd' [Na' _]]]]]]]. rewrite E.
  rewrite Hn in Hpr. cbn [orb] in Hpr. subst pr. exists w'. split; [reflexivity|]. split; [exact Hn'|]. split; [exact Hd'|exact Na'].
Qed.

Lemma drained_all_sent : forall o, Fr o -> next_step o = None ->
  Forall (fun e => ce_st e = SSent) (ob_ctl o) /\ Forall (fun e => le_st e = SSent) (ob_rel o) /\ Forall (fun e => re_st e = SSent) (ob_ret o).
Proof.
  intros o [Fc [Fl Ft]] Hn. unfold next_step, next_step_pass, orelse, find_ctl, find_rel, find_ret in Hn.
  assert (G : forall {A} (st : A -> sstate) (l : list A), Forall (fun e => okst (st e)) l ->
              find (fun e => matches_priority (st e) true) l = None -> find (fun e => matches_priority (st e) false) l = None ->
              Forall (fun e => st e = SSent) l).
  { intros A st l H. induction H as [|x t Hx Ht IH]; intros H1 H2; [constructor|]. cbn [find] in H1, H2.
    destruct (matches_priority (st x) true) eqn:E1; [discriminate|]. destruct (matches_priority (st x) false) eqn:E2; [discriminate|].
    constructor; [|now apply IH]. unfold matches_priority in E1, E2. destruct (st x) as [w0| |]; cbn in *; try discriminate; [|reflexivity].
    subst w0. discriminate. }
  destruct (find (fun e => matches_priority (ce_st e) true) (ob_ctl o)) eqn:C1; [discriminate|].
  destruct (find (fun e => matches_priority (le_st e) true) (ob_rel o)) eqn:L1; [discriminate|].
  destruct (find (fun e => matches_priority (re_st e) true) (ob_ret o)) eqn:R1; [discriminate|].
  destruct (find (fun e => matches_priority (ce_st e) false) (ob_ctl o)) eqn:C2; [discriminate|].
  destruct (find (fun e => matches_priority (le_st e) false) (ob_rel o)) eqn:L2; [discriminate|].
  destruct (find (fun e => matches_priority (re_st e) false) (ob_ret o)) eqn:R2; [discriminate|].
  split; [now apply G|]. split; now apply G.
Qed.

(* non-vacuity: a resumed connection (no keep-alive) with a retained publish to replay *)
Definition ex_cfgh : config :=
  {| cf_rx := 64; cf_tx := 128; cf_client_id := [99]; cf_keepalive_s := 0; cf_expiry := 0;
     cf_downgrade := false; cf_will := None; cf_auth := None |}.
Definition ex_replay : world :=
  run_case {| c_cfg := ex_cfgh;
              c_prog := [ASetBroker 2; AConnect []; APublish ex_pub; ADrive; AHandleDisconnect; AHeal; AConnect []];
              c_script := [(0, 1000); (0, 1000); (0, 1000); (0, 1000); (0, 1000); (0, 4); (1, 0)] |}.

Example healthy_example :
  w_script ex_replay = [] /\ w_live ex_replay = true /\ rt_mps (s_rt (w_sess ex_replay)) = None /\
  rt_next_ping (s_rt (w_sess ex_replay)) = None /\ rt_ka_ms (s_rt (w_sess ex_replay)) = 0 /\
  rt_ping_timeout (s_rt (w_sess ex_replay)) = None /\
  map re_st (ob_ret (s_ob (w_sess ex_replay))) = [SWrite 0] /\ ob_ctl (s_ob (w_sess ex_replay)) = [] /\ ob_rel (s_ob (w_sess ex_replay)) = [] /\
  packet_available (s_reader (w_sess ex_replay)) = false /\ M (w_sess ex_replay) < N.of_nat FUEL /\
  snd (op_drive FUEL ex_replay) = ODone None /\
  map re_st (ob_ret (s_ob (w_sess (fst (op_drive FUEL ex_replay))))) = [SSent].
Proof. vm_compute. repeat split; reflexivity. Qed.
