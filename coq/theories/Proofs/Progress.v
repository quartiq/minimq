(* Progress.v — C16, the parts that are statements about single steps: poll never returns "idle"; the engine never
   picks an entry it has already sent on this connection; every write step moves an entry's offset forward or
   completes it; every completed flush of an acknowledgement or PUBREL removes it from its queue. *)
From Coq Require Import List NArith Lia.
From Minimq Require Import Bytes Arena Core Machine Util.
Import ListNotations.
Local Open Scope N_scope.

(* poll()/recv() come back only with an inbound message, with "advanced", or with an error / a dropped future *)
Theorem wait_never_returns_idle : forall fuel w w' p, wait_for_progress fuel w = (w', ODone p) -> p <> PrIdle.
Proof.
  induction fuel as [|f IH]; intros w w' p H; cbn [wait_for_progress] in H; [discriminate|].
  destruct (drive_packet (S f) w) as [w1 r] eqn:Ed.
  destruct r as [pr|e| | |]; try discriminate.
  destruct pr as [| |q].
  - destruct (negb (w_live w1)); [discriminate|].
    destruct (fill_packet_reader (S f) (next_deadline (s_rt (w_sess w1))) w1) as [w2 fr].
    destruct fr; try discriminate; eapply IH; exact H.
  - inversion H; subst. discriminate.
  - inversion H; subst. discriminate.
Qed.

Theorem written_advances : forall w n len, 1 <= n ->
  set_written_state (w + n) len = SFlush \/ (set_written_state (w + n) len = SWrite (w + n) /\ w < w + n /\ w + n < len).
Proof.
  intros w n len Hn. unfold set_written_state. destruct (N.leb_spec len (w + n)); [left; reflexivity|right].
  repeat split; lia.
Qed.

Lemma update_first_found : forall {A} (p : A -> bool) (f : A -> A) l l',
  update_first p f l = (l', true) ->
  exists pre x post, l = pre ++ x :: post /\ p x = true /\ l' = pre ++ f x :: post /\ Forall (fun y => p y = false) pre.
Proof.
  intros A p f. induction l as [|y t IH]; intros l' H; cbn [update_first] in H; [discriminate|].
  destruct (p y) eqn:E.
  - inversion H; subst. exists [], y, t. repeat split; [exact E|constructor].
  - destruct (update_first p f t) as [t' b] eqn:Et. inversion H; subst.
    destruct (IH t' eq_refl) as [pre [x [post [-> [Hx [-> Hp]]]]]].
    exists (y :: pre), x, post. repeat split; [exact Hx|constructor; assumption].
Qed.

Lemma filter_len_le : forall {A} (g : A -> bool) l, (length (filter g l) <= length l)%nat.
Proof. intros A g. induction l as [|x t IH]; cbn [filter length]; [lia|]. destruct (g x); cbn [length]; lia. Qed.

Lemma filter_length_lt : forall {A} (g : A -> bool) pre x post, g x = false ->
  (length (filter g (pre ++ x :: post)) < length (pre ++ x :: post))%nat.
Proof.
  intros A g pre x post Hx. rewrite filter_app, !app_length. cbn [filter length]. rewrite Hx.
  pose proof (filter_len_le g pre). pose proof (filter_len_le g post). lia.
Qed.

Theorem flushed_control_leaves : forall o a o', flush_control o a = (o', true) -> glen (ob_ctl o') < glen (ob_ctl o).
Proof.
  intros o a o' H. unfold flush_control in H. destruct (update_first _ _ (ob_ctl o)) as [l b] eqn:E. inversion H; subst.
  destruct (update_first_found _ _ _ _ E) as [pre [x [post [El [_ [-> _]]]]]].
  cbn [ob_ctl with_ctl]. rewrite !glen_length, El.
  pose proof (filter_length_lt (fun e => negb (sstate_eqb (ce_st e) SSent)) pre
                {| ce_act := ce_act x; ce_st := SSent |} post eq_refl) as Hl.
  rewrite !app_length in *. cbn [length] in *. lia.
Qed.

(* the engine never picks an entry already sent on this connection (Status.next_step_not_sent) and, having written
   one completely, asks for its flush next *)
Theorem complete_entry_is_flushed_next : forall s a w,
  prepare_step s (StCtl a SFlush) = PFlush (FCtl a) /\
  (forall pid rc, prepare_step s (StRel pid rc SFlush) = PFlush (FRel pid)) /\
  (forall pid off len, prepare_step s (StRet pid off len SFlush) = PFlush (FRet pid)) /\
  set_written_state (w + 0) w = SFlush.
Proof.
  intros. repeat split. unfold set_written_state. destruct (N.leb_spec w (w + 0)); [reflexivity|lia].
Qed.
