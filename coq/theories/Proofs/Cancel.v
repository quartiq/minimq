(* Cancel.v — C13: everything an operation has achieved is in the session (or still in the transport) at the moment
   its future is dropped.  Inbound: no byte is lost, duplicated or reordered by a read that is dropped, times out or
   fails.  Outbound: a dropped engine step leaves either the session untouched or the step completely recorded.
   Requests: a dropped publish or subscribe is either not applied at all or applied in full. *)
From Coq Require Import List NArith String.
From Minimq Require Import Bytes Reader Arena Core Show Machine Run Util Io Effects Step Limits Chunking.
Import ListNotations.
Local Open Scope N_scope.

(* everything the broker has sent and the client has not consumed: the reader's buffer, then the transport queue *)
Definition inq_bytes (q : list (N * bytes)) : bytes := concat (map snd q).
Definition inbound_stream (w : world) : bytes := rdata (s_reader (w_sess w)) ++ inq_bytes (w_inq w).

Lemma avail_split_bytes : forall now q av later, avail_split now q = (av, later) -> inq_bytes q = av ++ inq_bytes later.
Proof.
  induction q as [|[t b] r IH]; intros av later H; cbn [avail_split] in H.
  - inversion H; subst. reflexivity.
  - destruct (t <=? now).
    + destruct (avail_split now r) as [a r'] eqn:E. inversion H; subst. cbn [inq_bytes map concat snd].
      fold (inq_bytes r). rewrite (IH a later eq_refl). now rewrite app_assoc.
    + inversion H; subst. reflexivity.
Qed.

Definition reads (q : list (N * bytes)) (x : world * rres) : Prop :=
  match snd x with
  | RData d => inq_bytes q = d ++ inq_bytes (w_inq (fst x))
  | _ => inq_bytes (w_inq (fst x)) = inq_bytes q
  end.

Lemma deliver_bytes : forall win amt w, reads (w_inq w) (deliver win amt w).
Proof.
  intros win amt w. unfold deliver. destruct (avail_split (w_now w) (w_inq w)) as [av later] eqn:E.
  unfold reads. cbn [fst snd w_inq upd_log upd_inq]. rewrite (avail_split_bytes _ _ _ _ E).
  set (n := N.min (N.max amt 1) (N.min win (lenN av))).
  rewrite <- (takeN_dropN av n) at 1. rewrite <- app_assoc. f_equal.
  destruct (dropN n av) as [|x t]; reflexivity.
Qed.

Lemma io_read_bytes : forall win dl w, reads (w_inq w) (io_read win dl w).
Proof.
  intros. unfold io_read. destruct (N.eqb win 0); [reflexivity|]. destruct (next_ev w) as [[k amt] rest].
  destruct (N.eqb k 1); [reflexivity|]. destruct (N.eqb k 2); [reflexivity|]. destruct (N.eqb k 3); [reflexivity|].
  destruct (avail_split (w_now w) (w_inq w)) as [[|a av] later]; [|exact (deliver_bytes win amt (upd_script w rest))].
  destruct (if MAX_WAITS <=? w_waits w then None else _) as [t|]; [|reflexivity].
  destruct (avail_split t _) as [[|a av] l1]; [reflexivity|]. exact (deliver_bytes win amt (upd_script _ rest)).
Qed.

Lemma inbound_stream_same : forall w w', rdata (s_reader (w_sess w')) = rdata (s_reader (w_sess w)) ->
  inq_bytes (w_inq w') = inq_bytes (w_inq w) -> inbound_stream w' = inbound_stream w.
Proof. intros w w' H1 H2. unfold inbound_stream. now rewrite H1, H2. Qed.

Lemma receive_buffer_data : forall r r' ow, receive_buffer r = (r', ow) -> rdata r' = rdata r.
Proof. intros r r' ow H. rewrite receive_buffer_eq in H. injection H as <- _. reflexivity. Qed.

Lemma fill_go_conserves_inbound : forall fuel y dl w,
  inbound_stream (fst (fill_go fuel y dl w)) = inbound_stream w.
Proof.
  induction fuel as [|f IH]; intros y dl w; cbn [fill_go]; [reflexivity|].
  destruct (packet_available _); [reflexivity|].
  destruct (receive_buffer (s_reader (w_sess w))) as [r' ow] eqn:Er.
  set (w0 := upd_sess w (set_reader (w_sess w) r')).
  assert (H0 : inbound_stream w0 = inbound_stream w) by (apply inbound_stream_same; [exact (receive_buffer_data _ _ _ Er) | reflexivity]).
  destruct ow as [win|]; [|exact H0]. destruct (N.eqb win 0); [exact H0|]. destruct (timer_fired y dl w0); [exact H0|].
  pose proof (io_read_bytes win dl w0) as Hb. pose proof (fr_sess _ _ (io_read_frame win dl w0)) as Hs.
  destruct (io_read win dl w0) as [w1 r]. unfold reads in Hb. cbn [fst snd] in Hb, Hs. rewrite <- H0.
  destruct r as [[|x t]| | |]; cbn [fst]; try (apply inbound_stream_same; [now rewrite Hs | exact Hb]).
  - apply inbound_stream_same; [now rewrite Hs | exact (eq_sym Hb)].
  - (* the bytes leave the queue and are appended to the reader's *)
    rewrite IH. unfold inbound_stream. cbn [w_sess upd_sess set_reader s_reader w_inq commit rdata].
    now rewrite Hs, <- app_assoc, <- Hb.
Qed.
Theorem fill_conserves_inbound : forall fuel dl w,
  inbound_stream (fst (fill_packet_reader fuel dl w)) = inbound_stream w.
Proof. intros. apply fill_go_conserves_inbound. Qed.

Theorem step_cancel_recorded : forall st now w w',
  perform_outbound_step st now w = (w', OCancel) ->
  w_sess w' = w_sess w \/
  (exists p bs written len n, prepare_step (w_sess w) st = PWrite p bs written len /\ len <= written + n /\
     w_sess w' = fst (set_written (w_sess w) p (written + n) len)).
Proof.
  intros st now w w' H. destruct (perform_cases _ _ _ _ _ H) as [_ [[_ E]|[p [bs [wr [len [n [[Ep [_ [_ [_ E]]]] L]]]]]]]]; [now left|right].
  exists p, bs, wr, len, n. auto.
Qed.

Lemma bindu_cancel : forall {A} (r : world * outcome unit) (k : world -> world * outcome A) w',
  bindu r k = (w', OCancel) -> r = (w', OCancel) \/ exists w1, r = (w1, ODone tt) /\ k w1 = (w', OCancel).
Proof.
  intros A [w1 o] k w' H. destruct o as [[]|e| | |]; cbn [bindu] in H; try discriminate; [right; eauto|].
  left. now injection H as <-.
Qed.

Theorem publish_cancel_cases : forall fuel r w w',
  op_publish fuel r w = (w', OCancel) ->
  flush_outbound fuel w = (w', OCancel) \/
  (exists w1 s2 m, flush_outbound fuel w = (w1, ODone tt) /\ publish_middle (w_sess w1) (w_live w1) r = (s2, m) /\
     finish_mid fuel (upd_sess w1 s2) m = (w', OCancel) /\
     match m with MErr _ => False | _ => True end).
Proof.
  intros fuel r w w' H. unfold op_publish in H. destruct (negb (w_live w)); [discriminate|].
  apply bindu_cancel in H. destruct H as [H|[w1 [Ef H]]]; [now left|right].
  destruct (publish_middle (w_sess w1) (w_live w1) r) as [s2 m] eqn:Em. exists w1, s2, m. repeat split; try assumption.
  destruct m; [discriminate H | exact I | exact I].
Qed.

Theorem subscribe_cancel_cases : forall fuel t ps w w',
  op_subscribe fuel t ps w = (w', OCancel) ->
  flush_outbound fuel w = (w', OCancel) \/
  (exists w1 s2 o, flush_outbound fuel w = (w1, ODone tt) /\ subscribe_middle (w_sess w1) t ps = (s2, MRetained o) /\
     flush_outbound fuel (upd_sess w1 s2) = (w', OCancel)).
Proof.
  intros fuel t ps w w' H. unfold op_subscribe in H. destruct (negb (w_live w)); [discriminate|].
  destruct t as [|t0 ts]; [discriminate|]. destruct (negb _); [discriminate|].
  apply bindu_cancel in H. destruct H as [H|[w1 [Ef H]]]; [now left|right].
  destruct (subscribe_middle (w_sess w1) (t0 :: ts) ps) as [s2 m] eqn:Em.
  (* a subscribe is never sent directly *)
  destruct m as [e|o|bs]; cbn [finish_mid] in H; [discriminate| |apply enqueue_middle_out in Em; inversion Em; discriminate].
  exists w1, s2, o. split; [exact Ef|]. split; [exact Em|].
  apply bindu_cancel in H. destruct H as [H|[w2 [_ H]]]; [exact H | discriminate].
Qed.

Theorem applied_request_is_retained : forall s k enc s' o,
  enqueue_middle s k enc = (s', MRetained o) ->
  exists e, In e (ob_ret (s_ob s')) /\ re_pid e = op_pid o.
Proof.
  intros s k enc s' o H. destruct (enqueue_middle_within s k enc s' o H) as [e [Hi [Hp _]]]. exists e. split; assumption.
Qed.

(* disconnect() is not all or nothing (known finding K13d / K01c): connect, then disconnect() whose first write
   accepts one byte and whose future is then dropped: one byte of the DISCONNECT is on the wire, nothing in the
   session remembers it, and the handle is still live *)
Definition k13_tokens : list N :=
  [64; 256; 1; 116; 0; 0; 0; 0; 0; 2;
   0; 1; 0; 5; 32; 3; 0; 0; 0;
   4; 0; 0;
   7; 0; 1000; 0; 1000; 0; 1000; 0; 1000; 0; 1000; 0; 1; 3; 0].

Definition k13_world : option world :=
  match p_case k13_tokens with Some (c, []) => Some (run_case c) | _ => None end.

(* what the statement below reads off the run, computed once *)
Definition has_line (l : text) (w : world) : bool :=
  existsb (fun x => if list_eq_dec N.eq_dec x l then true else false) (w_log w).

Lemma has_line_In : forall l w, has_line l w = true -> In l (w_log w).
Proof.
  intros l w H. apply existsb_exists in H. destruct H as [x [Hi Hx]]. destruct (list_eq_dec N.eq_dec x l); [now subst|discriminate].
Qed.

Lemma k13_observed :
  option_map (fun w => (w_live w, has_line (s2t "w 2 1 e0"%string) w, has_line (s2t "= cancelled"%string) w,
                        next_step (s_ob (w_sess w)))) k13_world = Some (true, true, true, None).
Proof. vm_compute. reflexivity. Qed.

Theorem disconnect_cancel_refuted :
  exists w, k13_world = Some w /\
    w_live w = true /\ In (s2t "w 2 1 e0"%string) (w_log w) /\ In (s2t "= cancelled"%string) (w_log w) /\
    next_step (s_ob (w_sess w)) = None.
Proof.
  pose proof k13_observed as H. destruct k13_world as [w|]; [|discriminate]. injection H as H1 H2 H3 H4.
  exists w. repeat split; auto using has_line_In.
Qed.
