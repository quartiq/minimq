(* PingQuiet.v — time and the keep-alive timer through the outbound engine: time does not pass inside a write or a flush,
   and once no PINGREQ is to be queued (PQ) this stays so through every engine step.  At the end: what a pass of
   drive_loop comes to while no timer fires and no PINGREQ is to be queued (drive_loop_quiet, drive_loop_step). *)
From Coq Require Import List NArith Lia.
From Minimq Require Import Bytes Arena Core Machine WireInv Wire Io Terminate.
Import ListNotations.
Local Open Scope N_scope.

Definition not_failed {A} (r : outcome A) : Prop := match r with OFail _ => False | _ => True end.

Lemma set_written_fields : forall s k x len,
  s_rt (fst (set_written s k x len)) = s_rt s /\ lenN (ob_buf (s_ob (fst (set_written s k x len)))) = lenN (ob_buf (s_ob s)).
Proof.
  intros. unfold set_written. destruct k as [a|pid|pid];
    [unfold set_control_written|unfold set_release_written|unfold set_retained_written];
    destruct (update_first _ _ _) as [l0 b]; split; reflexivity.
Qed.


(* a transport whose remaining script has no slow write (kinds 4, 5): time does not pass inside its writes *)
Definition slow_ev (e : N * N) : bool := N.eqb (fst e) 4 || N.eqb (fst e) 5.
Definition Calm (w : world) : Prop := Forall (fun e => slow_ev e = false) (w_script w).
(* PQ: no PINGREQ is to be queued at this instant.  Once it holds it keeps holding through the drain: time does not pass inside
   it, a queued PINGREQ stays queued until it is flushed, and every completed flush moves the next ping into the future. *)
Definition PQ (w : world) : Prop := should_queue_pingreq (w_sess w) (w_now w) = false /\ Calm w.

Definition pframe (s s' : session) : Prop :=
  rt_ping_timeout (s_rt s') = rt_ping_timeout (s_rt s) /\ rt_next_ping (s_rt s') = rt_next_ping (s_rt s) /\
  ob_ctl (s_ob s') = ob_ctl (s_ob s).
Lemma pframe_sq : forall s s', pframe s s' -> forall now, should_queue_pingreq s' now = should_queue_pingreq s now.
Proof. intros s s' [H1 [H2 H3]] now. unfold should_queue_pingreq, has_pending_pingreq. rewrite H1, H2, H3. reflexivity. Qed.

Lemma next_ev_calm : forall w k amt rest, next_ev w = ((k, amt), rest) -> Calm w ->
  (N.eqb k 4 || N.eqb k 5) = false /\ Forall (fun e => slow_ev e = false) rest.
Proof.
  intros w k amt rest E H. unfold next_ev in E. unfold Calm in H. destruct (w_script w) as [|e t] eqn:Es.
  - inversion E; subst. split; [reflexivity|constructor].
  - inversion E; subst. inversion H; subst. split; assumption.
Qed.

Lemma io_write_now : forall bs w, Calm w -> w_now (fst (io_write bs w)) = w_now w /\ Calm (fst (io_write bs w)).
Proof.
  intros bs w Hc. unfold io_write. destruct (N.eqb (lenN bs) 0); [split; [reflexivity|exact Hc]|].
  destruct (next_ev w) as [[k amt] rest] eqn:En. destruct (next_ev_calm _ _ _ _ En Hc) as [Hk Hr].
  apply orb_false_iff in Hk. destruct Hk as [H4 H5].
  destruct (N.eqb k 1); [split; [reflexivity|exact Hr]|]. destruct (N.eqb k 2); [split; [reflexivity|exact Hr]|].
  destruct (N.eqb k 3); [split; [reflexivity|exact Hr]|].
  rewrite H4, H5. cbv zeta. cbn [fst]. unfold Calm.
  match goal with |- context [broker_feed ?x ?a] => destruct (broker_feed_other x a) as [-> [-> _]] end. split; [reflexivity|exact Hr].
Qed.
Lemma io_flush_now : forall w, w_now (fst (io_flush w)) = w_now w.
Proof. intros w. unfold io_flush. destruct (next_ev w) as [[k a] rest]. destruct (N.eqb k 1); [reflexivity|]. destruct (N.eqb k 3); reflexivity. Qed.
Lemma io_flush_calm : forall w, Calm w -> Calm (fst (io_flush w)).
Proof.
  intros w Hc. unfold io_flush. destruct (next_ev w) as [[k a] rest] eqn:En. destruct (next_ev_calm _ _ _ _ En Hc) as [_ Hr].
  destruct (N.eqb k 1); [exact Hr|]. destruct (N.eqb k 3); exact Hr.
Qed.

Lemma noa_not_due : forall r now,
  match rt_next_ping (note_outbound_activity r now) with Some d => d <=? now | None => false end = false.
Proof.
  intros r now. unfold note_outbound_activity, keepalive_send_interval. cbn [rt_with_timers rt_next_ping].
  destruct (N.eqb_spec (rt_ka_ms r) 0) as [E0|E0]; [reflexivity|]. apply N.leb_gt. unfold ROUND_TRIP_TIMEOUT_MS.
  assert (rt_ka_ms r / 2 < rt_ka_ms r) by (apply N.div_lt; lia). lia.
Qed.

Lemma complete_flush_pq : forall s k now, should_queue_pingreq (fst (complete_flush s k now)) now = false.
Proof.
  intros s k now. unfold complete_flush.
  set (r1 := match k with FCtl CPing => rt_with_timers (s_rt s) (rt_next_ping (s_rt s)) (Some (now + ROUND_TRIP_TIMEOUT_MS)) | _ => s_rt s end).
  destruct (match k with FCtl a => flush_control (s_ob s) a | FRel pid => flush_release (s_ob s) pid | FRet pid => flush_retained (s_ob s) pid end) as [o b].
  cbn [fst]. unfold should_queue_pingreq. cbn [s_rt set_rt]. rewrite (noa_not_due r1 now). rewrite andb_false_r. reflexivity.
Qed.

(* the timers are untouched and a queued PINGREQ stays queued *)
Lemma set_written_pq : forall s p x len now,
  should_queue_pingreq s now = false -> should_queue_pingreq (fst (set_written s p x len)) now = false.
Proof.
  intros s p x len now H. pose proof (pb_set_written s p x len) as Hb. destruct (set_written_fields s p x len) as [Rt _].
  unfold should_queue_pingreq, pbudget in *. rewrite Rt in *.
  destruct (rt_ping_timeout (s_rt s)); [reflexivity|]. cbn [andb] in *.
  destruct (match rt_next_ping (s_rt s) with Some d => d <=? now | None => false end); [|reflexivity]. cbn [andb] in *.
  destruct (has_pending_pingreq (s_ob s)); [|discriminate].
  destruct (has_pending_pingreq (s_ob (fst (set_written s p x len)))); [reflexivity|lia].
Qed.

Lemma calm_nil : forall w, w_script w = [] -> Calm w.
Proof. intros w H. unfold Calm. rewrite H. constructor. Qed.

Lemma upd_sess_calm : forall w s, Calm (upd_sess w s) <-> Calm w.
Proof. intros. unfold Calm. cbn [w_script upd_sess]. tauto. Qed.

Lemma flush_current_pq : forall p w w' r, PQ w -> flush_current p (w_now w) w = (w', r) -> not_failed r -> PQ w' /\ w_now w' = w_now w.
Proof.
  intros p w w' r [Hq Hc] H Hr. unfold flush_current in H. destruct (w_live w); cbn [negb] in H; [|inversion H; subst; contradiction].
  destruct (io_flush w) as [w1 fr] eqn:Ef. destruct (io_flush_ghost _ _ _ Ef) as [Hs _].
  pose proof (io_flush_now w) as Nw. rewrite Ef in Nw. cbn [fst] in Nw.
  pose proof (io_flush_calm w Hc) as Cw. rewrite Ef in Cw. cbn [fst] in Cw.
  destruct fr.
  - destruct (complete_flush (w_sess w1) p (w_now w)) as [s3 f3] eqn:Ec.
    assert (Es3 : s3 = fst (complete_flush (w_sess w) p (w_now w))) by (rewrite <- Hs, Ec; reflexivity).
    assert (Hw' : w' = upd_sess w1 s3) by (destruct f3; now inversion H). subst w'.
    unfold PQ. cbn [w_sess w_now upd_sess]. rewrite Es3, Nw. split; [split; [apply complete_flush_pq|apply upd_sess_calm; exact Cw]|reflexivity].
  - inversion H; subst. contradiction.
  - inversion H; subst. unfold PQ. rewrite Hs, Nw. split; [split; [exact Hq|exact Cw]|reflexivity].
Qed.

Lemma step_pq : forall st w w' r, PQ w ->
  perform_outbound_step st (w_now w) w = (w', r) -> not_failed r -> PQ w' /\ w_now w' = w_now w.
Proof.
  intros st w w' r [Hq Hc] H Hr. unfold perform_outbound_step in H.
  destruct (prepare_step (w_sess w) st) as [p bs written len|p| |e] eqn:Ep.
  - destruct (w_live w) eqn:Hl; cbn [negb] in H; [|inversion H; subst; contradiction].
    destruct (io_write (dropN written bs) w) as [w1 r0] eqn:Ew.
    destruct (io_write_ghost _ _ _ _ Ew) as [Hs _].
    pose proof (io_write_now (dropN written bs) w Hc) as [Nw Cw]. rewrite Ew in Nw, Cw. cbn [fst] in Nw, Cw.
    destruct r0 as [n| |]; [|inversion H; subst; contradiction|].
    + destruct (N.eqb n 0); [inversion H; subst; contradiction|].
      destruct (set_written (w_sess w1) p (written + n) len) as [s2 found] eqn:Es.
      assert (Es2 : s2 = fst (set_written (w_sess w) p (written + n) len)) by (rewrite <- Hs, Es; reflexivity).
      assert (Q2 : PQ (upd_sess w1 s2)).
      { unfold PQ. cbn [w_sess w_now upd_sess]. rewrite Es2, Nw.
        split; [apply set_written_pq; exact Hq|apply upd_sess_calm; exact Cw]. }
      destruct (negb found); [inversion H; subst; split; [exact Q2|exact Nw]|].
      destruct (written + n <? len); [inversion H; subst; split; [exact Q2|exact Nw]|].
      assert (N2 : w_now (upd_sess w1 s2) = w_now w) by exact Nw.
      rewrite <- N2 in H. destruct (flush_current_pq _ _ _ _ Q2 H Hr) as [Q3 N3]. split; [exact Q3|now rewrite N3].
    + inversion H; subst. unfold PQ. rewrite Hs, Nw. split; [split; [exact Hq|exact Cw]|reflexivity].
  - now apply (flush_current_pq p w w' r (conj Hq Hc)) in H.
  - inversion H; subst. split; [exact (conj Hq Hc)|reflexivity].
  - inversion H; subst. contradiction.
Qed.

Lemma pq_no_ping : forall w, PQ w -> maybe_queue_pingreq (w_sess w) (w_now w) = (w_sess w, None).
Proof. intros w [H _]. unfold maybe_queue_pingreq. rewrite H. reflexivity. Qed.


Lemma not_due_quiet : forall s now, (forall d, rt_next_ping (s_rt s) = Some d -> now < d) -> rt_ping_timeout (s_rt s) = None ->
  should_queue_pingreq s now = false.
Proof.
  intros s now Hnp Hpt. unfold should_queue_pingreq. rewrite Hpt.
  destruct (rt_next_ping (s_rt s)) as [d|]; [|reflexivity]. now rewrite (proj2 (N.leb_gt d now) (Hnp d eq_refl)).
Qed.

Lemma no_timers_quiet : forall s now, rt_next_ping (s_rt s) = None -> rt_ping_timeout (s_rt s) = None ->
  ping_timed_out s now = false /\ should_queue_pingreq s now = false.
Proof.
  intros s now Hnp Hpt. split; [unfold ping_timed_out; now rewrite Hpt|].
  apply not_due_quiet; [rewrite Hnp; discriminate|exact Hpt].
Qed.

Lemma drive_loop_quiet : forall f adv w,
  NA w -> ping_timed_out (w_sess w) (w_now w) = false -> should_queue_pingreq (w_sess w) (w_now w) = false ->
  next_step (s_ob (w_sess w)) = None ->
  drive_loop (S f) adv w = (w, ODone (if adv then PrAdvanced else PrIdle)).
Proof.
  intros f adv w Hna Hto Hq Hn. cbn [drive_loop]. unfold process_received. unfold NA in Hna. rewrite Hna. cbn [negb].
  unfold service, maybe_queue_pingreq. rewrite Hto, Hq, upd_sess_id, Hn, orb_false_r, Hn. reflexivity.
Qed.

Lemma drive_loop_step : forall f adv w st w',
  NA w -> ping_timed_out (w_sess w) (w_now w) = false -> should_queue_pingreq (w_sess w) (w_now w) = false ->
  next_step (s_ob (w_sess w)) = Some st -> perform_outbound_step st (w_now w) w = (w', ODone true) ->
  drive_loop (S f) adv w =
  match next_step (s_ob (w_sess w')) with None => (w', ODone PrAdvanced) | Some _ => drive_loop f true w' end.
Proof.
  intros f adv w st w' Hna Hto Hq En E. cbn [drive_loop]. unfold process_received. unfold NA in Hna. rewrite Hna. cbn [negb].
  unfold service, maybe_queue_pingreq. rewrite Hto, Hq, upd_sess_id, En, E. cbv beta iota. rewrite orb_true_r. reflexivity.
Qed.

Lemma drive_loop_last_step : forall f adv w st w',
  NA w -> ping_timed_out (w_sess w) (w_now w) = false -> should_queue_pingreq (w_sess w) (w_now w) = false ->
  next_step (s_ob (w_sess w)) = Some st ->
  perform_outbound_step st (w_now w) w = (w', ODone true) -> next_step (s_ob (w_sess w')) = None ->
  drive_loop (S f) adv w = (w', ODone PrAdvanced).
Proof. intros f adv w st w' Hna Hto Hq En E En'. now rewrite (drive_loop_step f adv w st w' Hna Hto Hq En E), En'. Qed.
