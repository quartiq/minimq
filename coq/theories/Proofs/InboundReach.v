(* InboundReach.v — the pending inbound QoS 2 identifiers are pairwise distinct in every reachable world *)
From Coq Require Import List NArith.
From Minimq Require Import Bytes Core Machine Run Reach Inbound.
Import ListNotations.
Local Open Scope N_scope.

Theorem reachable_SrvInv : forall c, SrvInv (w_sess (run_case c)).
Proof. intros c. apply (reachable_closed SrvInv SrvInv_step). constructor. Qed.

Theorem reachable_srv_bound : forall c, glen (s_srv (w_sess (run_case c))) <= 8.
Proof. intros c. apply (Inv.inv_srv _ (reachable_Inv c)). Qed.
