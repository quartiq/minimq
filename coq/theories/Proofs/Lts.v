(* Lts.v — the session-level labelled transition system the machine refines: every change the asynchronous
   operations make to the session is one of these synchronous steps.  State invariants are proved closed under
   `sstep` (Inv.v, Quota.v, Cap.v, ...) and lifted to every reachable world by Refine.v and Reach.v. *)
From Minimq Require Import Effects Bytes De Arena Core.

Inductive slabel :=
| LOther
| LConnack (resumed : bool) (unresolved maxquota : N)    (* a successful CONNACK was processed *)
| LPacket (ok : bool).                                   (* an inbound packet was handled; ok = ack_type_ok *)

(* the environment assumptions a label carries (mirrored by the ghost flag w_envok of the machine) *)
Definition label_ok (l : slabel) : bool :=
  match l with
  | LOther => true
  | LConnack resumed u m => if resumed then u <=? m else true
  | LPacket ok => ok
  end.

Definition connack_label (s : session) (p : option rpacket) (now : N) : slabel :=
  match snd (connack_process s p now) with
  | CAOk resumed =>
      LConnack resumed (if resumed then unresolved_publishes (s_ob s) else 0)
               (rt_maxquota (s_rt (fst (connack_process s p now))))
  | _ => LOther
  end.

Inductive sstep : session -> slabel -> session -> Prop :=
| SS_hd s : sstep s LOther (sess_handle_disconnect s)
| SS_ping s now : sstep s LOther (fst (maybe_queue_pingreq s now))
| SS_written s st p bs w len n :
    next_step (s_ob s) = Some st -> prepare_step s st = PWrite p bs w len ->
    sstep s LOther (fst (set_written s p (w + n) len))
| SS_flushed s p now : sstep s LOther (fst (complete_flush s p now))
| SS_reader s r : sstep s LOther (set_reader s r)
| SS_packet s p : sstep s (LPacket (ack_type_ok s p)) (fst (handle_packet s p))
| SS_publish s live r : sstep s LOther (fst (publish_middle s live r))
| SS_subscribe s t ps : sstep s LOther (fst (subscribe_middle s t ps))
| SS_unsubscribe s t ps : sstep s LOther (fst (unsubscribe_middle s t ps))
| SS_timers_cleared s : sstep s LOther (set_rt s (rt_with_timers (s_rt s) None None))
| SS_activity s now : sstep s LOther (set_rt s (note_outbound_activity (s_rt s) now))
| SS_reset_transport s : sstep s LOther (set_rt s (reset_transport (s_rt s)))
| SS_arm_replay s : sstep s LOther (set_ob s (arm_replay (s_ob s)))
| SS_compact s : sstep s LOther (set_ob s (compact (s_ob s)))
| SS_connack s p now : sstep s (connack_label s p now) (fst (connack_process s p now))
| SS_setpid s p : 1 <= p <= 65535 -> sstep s LOther (set_pid s p).

Inductive spath : session -> list slabel -> session -> Prop :=
| SP_nil s : spath s [] s
| SP_cons s l s1 ls s2 : sstep s l s1 -> spath s1 ls s2 -> spath s (l :: ls) s2.

Lemma spath_app : forall s1 l1 s2 l2 s3, spath s1 l1 s2 -> spath s2 l2 s3 -> spath s1 (l1 ++ l2) s3.
Proof.
  intros s1 l1 s2 l2 s3 H. induction H; intros H2; cbn [app]; [exact H2|].
  econstructor; [eassumption | now apply IHspath].
Qed.

Lemma spath_one : forall s l s', sstep s l s' -> spath s [l] s'.
Proof. intros. econstructor; [eassumption | constructor]. Qed.

Definition sreach (s s' : session) : Prop := exists ls, spath s ls s'.
Lemma sreach_refl : forall s, sreach s s.
Proof. intros. exists []. constructor. Qed.
Lemma sreach_trans : forall a b c, sreach a b -> sreach b c -> sreach a c.
Proof. intros a b c [l1 H1] [l2 H2]. exists (l1 ++ l2). eapply spath_app; eassumption. Qed.
Lemma sreach_step : forall s l s', sstep s l s' -> sreach s s'.
Proof. intros. exists [l]. now apply spath_one. Qed.

Lemma spath_inv : forall (P : session -> Prop),
  (forall s l s', sstep s l s' -> P s -> P s') ->
  forall s ls s', spath s ls s' -> P s -> P s'.
Proof. intros P Hc s ls s' H. induction H; intros HP; [exact HP|]. apply IHspath. eapply Hc; eassumption. Qed.

Lemma spath_inv_ok : forall (P : session -> Prop),
  (forall s l s', sstep s l s' -> label_ok l = true -> P s -> P s') ->
  forall s ls s', spath s ls s' -> forallb label_ok ls = true -> P s -> P s'.
Proof.
  intros P Hc s ls s' H. induction H as [s|s l s1 ls s2 Hs Hp IH]; intros Hl HP; [exact HP|].
  cbn [forallb] in Hl. apply andb_prop in Hl. destruct Hl as [Hl1 Hl2]. apply IH; [exact Hl2|]. eapply Hc; eassumption.
Qed.

Definition ereach (s : session) (b : bool) (s' : session) : Prop :=
  exists ls, spath s ls s' /\ forallb label_ok ls = b.
Lemma ereach_refl : forall s, ereach s true s.
Proof. intros. exists []. split; [constructor|reflexivity]. Qed.
Lemma ereach_trans : forall a b c x y, ereach a x b -> ereach b y c -> ereach a (x && y) c.
Proof.
  intros a b c x y [l1 [H1 F1]] [l2 [H2 F2]]. exists (l1 ++ l2). split.
  - eapply spath_app; eassumption.
  - rewrite forallb_app. now rewrite F1, F2.
Qed.
Lemma ereach_step : forall s l s', sstep s l s' -> ereach s (label_ok l) s'.
Proof. intros. exists [l]. split; [now apply spath_one | cbn [forallb]; now rewrite andb_true_r]. Qed.
Lemma ereach_sreach : forall s b s', ereach s b s' -> sreach s s'.
Proof. intros s b s' [ls [H _]]. now exists ls. Qed.

(* The steps by what they do to the session: ten of the sixteen touch only the outbound state (in one of six ways), the
   runtime (never its send quota or its ceiling) and the reader; the three requests differ in their encoder only. *)
Inductive ob_eff (s : session) : outbound -> Prop :=
| OE_same : ob_eff s (s_ob s)
| OE_arm : ob_eff s (arm_replay (s_ob s))
| OE_compact : ob_eff s (compact (s_ob s))
| OE_ctl a o : queue_control (s_ob s) a = Some o -> ob_eff s o
| OE_written st p bs w len n : next_step (s_ob s) = Some st -> prepare_step s st = PWrite p bs w len ->
    ob_eff s (s_ob (fst (set_written s p (w + n) len)))
| OE_flushed p now : ob_eff s (s_ob (fst (complete_flush s p now))).

Inductive seff (s : session) : slabel -> session -> Prop :=
| SE_ob o r rd : ob_eff s o -> rt_quota r = rt_quota (s_rt s) -> rt_maxquota r = rt_maxquota (s_rt s) ->
    seff s LOther (set_reader (set_rt (set_ob s o) r) rd)
| SE_packet p : seff s (LPacket (ack_type_ok s p)) (fst (handle_packet s p))
| SE_mid D dec live s' m : mid_out (fun _ => req_enc dec) D dec live s s' m -> seff s LOther s'
| SE_connack sp a its now :
    connack_props its (N.min MAX_RETAINED MAX_PENDING_RELEASE) (connack_acc0 s) = Some a ->
    seff s (LConnack sp (if sp then unresolved_publishes (s_ob s) else 0) (ca_maxquota a)) (connack_ok s sp a now)
| SE_pid p : 1 <= p <= 65535 -> seff s LOther (set_pid s p).

Lemma sstep_seff : forall s l s', sstep s l s' -> seff s l s'.
Proof.
  intros s l s' H.
  assert (O : forall o r, ob_eff s o -> rt_quota r = rt_quota (s_rt s) -> rt_maxquota r = rt_maxquota (s_rt s) ->
                seff s LOther (set_rt (set_ob s o) r)).
  { intros o r Ho Hq Hm. replace (set_rt (set_ob s o) r) with (set_reader (set_rt (set_ob s o) r) (s_reader s)) by now destruct s.
    now constructor. }
  assert (O1 : forall o, ob_eff s o -> seff s LOther (set_ob s o)).
  { intros o Ho. replace (set_ob s o) with (set_rt (set_ob s o) (s_rt s)) by now destruct s. now apply O. }
  assert (R : forall r, rt_quota r = rt_quota (s_rt s) -> rt_maxquota r = rt_maxquota (s_rt s) -> seff s LOther (set_rt s r)).
  { intros r Hq Hm. replace (set_rt s r) with (set_rt (set_ob s (s_ob s)) r) by now destruct s. apply O; [constructor | exact Hq | exact Hm]. }
  assert (Same : seff s LOther s).
  { replace s with (set_ob s (s_ob s)) at 2 by now destruct s. apply O1. constructor. }
  destruct H.
  - apply SE_ob; [apply OE_arm | reflexivity | reflexivity].
  - destruct (maybe_queue_pingreq_cases s now _ _ (surjective_pairing _)) as [->|[o [E [-> _]]]]; [exact Same|].
    eapply O1, OE_ctl, E.
  - rewrite (set_written_ob s p (w + n) len _ _ (surjective_pairing _)). eapply O1, OE_written; eassumption.
  - destruct (complete_flush_ob_rt s p now _ _ (surjective_pairing _)) as [-> [Hq Hm]]. apply O; [apply OE_flushed | exact Hq | exact Hm].
  - replace (set_reader s r) with (set_reader (set_rt (set_ob s (s_ob s)) (s_rt s)) r) by now destruct s.
    apply SE_ob; [constructor | reflexivity | reflexivity].
  - constructor.
  - eapply SE_mid, mid_out_mono, publish_middle_out, surjective_pairing. intros id e [_ ->]. constructor.
  - eapply SE_mid, mid_out_mono, enqueue_middle_out, surjective_pairing. intros id e ->. exact (RE_sub _).
  - eapply SE_mid, mid_out_mono, enqueue_middle_out, surjective_pairing. intros id e ->. exact (RE_unsub _).
  - now apply R.
  - now apply R.
  - now apply R.
  - apply O1, OE_arm.
  - apply O1, OE_compact.
  - unfold connack_label. destruct (connack_process s p now) as [s' cr] eqn:E. cbn [fst snd].
    destruct (connack_cases _ _ _ _ _ E) as [[-> [e [d ->]]]|[sp [rc [props [a [_ [_ [Ea [-> ->]]]]]]]]]; [exact Same|].
    exact (SE_connack s sp a _ now Ea).
  - now constructor.
Qed.

Lemma sstep_frame : forall s l s', sstep s l s' ->
  (s_cfg s' = s_cfg s /\ s_gen s' = s_gen s /\ s_sp s' = s_sp s /\ rt_maxquota (s_rt s') = rt_maxquota (s_rt s)) \/
  (exists sp a its now, connack_props its (N.min MAX_RETAINED MAX_PENDING_RELEASE) (connack_acc0 s) = Some a /\
     l = LConnack sp (if sp then unresolved_publishes (s_ob s) else 0) (ca_maxquota a) /\ s' = connack_ok s sp a now).
Proof.
  intros s l s' H. destruct (sstep_seff _ _ _ H) as [o r rd _ _ Hm|p|D dec live s' m M|sp a its now Ea|p _].
  - left. now repeat split.
  - left. now destruct (handle_packet_frame s p).
  - left. now destruct (mid_frame _ _ _ _ _ _ _ M).
  - right. now exists sp, a, its, now.
  - left. now repeat split.
Qed.
