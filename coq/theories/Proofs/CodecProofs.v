(* CodecProofs.v — the packet codec: property sizes, serializer content, fixed-header gate, round trips of PUBLISH
   and of the property iterator. *)
From Coq Require Import Lia.
From Minimq Require Import Util Bytes Varint Utf8 Props Ser De VarintProofs SerLemmas.

Lemma lenN_u16 : forall v, lenN (u16_be v) = 2. Proof. reflexivity. Qed.
Lemma lenN_u32 : forall v, lenN (u32_be v) = 4. Proof. reflexivity. Qed.

Ltac lens := repeat first [rewrite lenN_app | rewrite lenN_cons | rewrite lenN_nil | rewrite lenN_u16 | rewrite lenN_u32].

Lemma len_prefixed_inv : forall d x, len_prefixed d = Some x -> x = u16_be (lenN d) ++ d /\ lenN d < 65536.
Proof.
  intros d x H. unfold len_prefixed in H. destruct (N.ltb_spec 65535 (lenN d)); [discriminate|].
  injection H as <-. split; [reflexivity|lia].
Qed.

Lemma kind_id_small : forall k, kind_id k < 128.
Proof. destruct k; cbn [kind_id]; lia. Qed.

Lemma kind_id_write : forall k, varint_write (kind_id k) = Some [kind_id k].
Proof. intros k. apply varint_write_small, kind_id_small. Qed.

Lemma prop_encode_inv : forall p bs, prop_encode p = Some bs ->
  exists v, bs = kind_id (pk p) :: v /\
    match kind_shape (pk p) with
    | ShU8 => v = [pnum p]
    | ShU16 => v = u16_be (pnum p)
    | ShU32 => v = u32_be (pnum p)
    | ShVar => varint_write (pnum p) = Some v
    | ShStr | ShBin => len_prefixed (pdata p) = Some v
    | ShPair => exists a b, len_prefixed (pdata p) = Some a /\ len_prefixed (pdata2 p) = Some b /\ v = a ++ b
    end.
Proof.
  intros p bs H. unfold prop_encode in H. rewrite kind_id_write in H.
  destruct (kind_shape (pk p));
    [| | |destruct (varint_write _)|destruct (len_prefixed _)|destruct (len_prefixed _)
     |destruct (len_prefixed (pdata p)) as [a|], (len_prefixed (pdata2 p)) as [b|]];
    try discriminate; injection H as <-; eexists; (split; [reflexivity|]); try reflexivity.
  now exists a, b.
Qed.

(* C09: Property::size is the number of bytes Property::serialize emits *)
Theorem prop_size_eq : forall p bs, prop_encode p = Some bs -> lenN bs = prop_size p.
Proof.
  intros p bs H. destruct (prop_encode_inv _ _ H) as [v [-> Hv]]. unfold prop_size.
  rewrite <- (varint_write_len_eq _ _ (kind_id_write (pk p))). destruct (kind_shape (pk p)).
  1-3: subst v; lens; lia.
  - rewrite <- (varint_write_len_eq _ _ Hv). lens. lia.
  - apply len_prefixed_inv in Hv as [-> _]. lens. lia.
  - apply len_prefixed_inv in Hv as [-> _]. lens. lia.
  - destruct Hv as [a [b [Ea [Eb ->]]]]. apply len_prefixed_inv in Ea as [-> _]. apply len_prefixed_inv in Eb as [-> _]. lens. lia.
Qed.

Fixpoint encode_all (l : list prop) : option bytes :=
  match l with
  | [] => Some []
  | p :: t => match prop_encode p, encode_all t with Some a, Some b => Some (a ++ b) | _, _ => None end
  end.

Theorem props_size_eq : forall l bs, encode_all l = Some bs -> lenN bs = sumN (map prop_size l).
Proof.
  induction l as [|p t IH]; intros bs H; cbn [encode_all map sumN] in *; [inversion H; reflexivity|].
  destruct (prop_encode p) as [a|] eqn:Ea; [|discriminate]. destruct (encode_all t) as [b|] eqn:Eb; [|discriminate].
  inversion H; subst. rewrite lenN_app, (prop_size_eq _ _ Ea), (IH b eq_refl). reflexivity.
Qed.

(* the serializer writes exactly the concatenation of the chunks, or fails: nothing truncated *)
Fixpoint concat_chunks (cs : list chunk) : option bytes :=
  match cs with
  | [] => Some []
  | None :: _ => None
  | Some d :: t => match concat_chunks t with Some r => Some (d ++ r) | None => None end
  end.

Lemma ser_push_content : forall cs cap idx acc idx' body,
  ser_push cap idx cs acc = SOk idx' body -> exists r, concat_chunks cs = Some r /\ body = acc ++ r.
Proof.
  induction cs as [|c t IH]; intros cap idx acc idx' body H; cbn [ser_push concat_chunks] in *.
  - inversion H; subst. exists []. split; [reflexivity|now rewrite app_nil_r].
  - destruct c as [d|]; [|discriminate]. destruct (_ <? _); [discriminate|].
    destruct (IH _ _ _ _ _ H) as [r [Hr Hb]]. rewrite Hr. exists (d ++ r). split; [reflexivity|]. now rewrite Hb, app_assoc.
Qed.

Lemma concat_chunks_app : forall a b, concat_chunks (a ++ b) =
  match concat_chunks a, concat_chunks b with Some x, Some y => Some (x ++ y) | _, _ => None end.
Proof.
  induction a as [|c t IH]; intros b; cbn [app concat_chunks].
  - destruct (concat_chunks b); reflexivity.
  - destruct c as [d|]; [|reflexivity]. rewrite IH. destruct (concat_chunks t); [|reflexivity].
    destruct (concat_chunks b); [now rewrite app_assoc|reflexivity].
Qed.

Lemma concat_chunks_cons_some : forall c t x, concat_chunks (c :: t) = Some x ->
  exists d r, c = Some d /\ concat_chunks t = Some r /\ x = d ++ r.
Proof.
  intros c t x H. cbn [concat_chunks] in H. destruct c as [d|]; [|discriminate].
  destruct (concat_chunks t) as [r|]; [|discriminate]. injection H as <-. now exists d, r.
Qed.

Lemma concat_chunks_app_some : forall a b x, concat_chunks (a ++ b) = Some x ->
  exists xa xb, concat_chunks a = Some xa /\ concat_chunks b = Some xb /\ x = xa ++ xb.
Proof.
  intros a b x H. rewrite concat_chunks_app in H. destruct (concat_chunks a) as [xa|]; [|discriminate].
  destruct (concat_chunks b) as [xb|]; [|discriminate]. injection H as <-. now exists xa, xb.
Qed.

Lemma prop_chunks_concat : forall p, concat_chunks (prop_chunks p) =
  match prop_encode p with Some bs => Some bs | None => None end.
Proof.
  intros p. unfold prop_chunks. destruct (prop_encode p) as [bs|]; [cbn [concat_chunks]; now rewrite app_nil_r|].
  destruct (varint_write (kind_id (pk p))); [|reflexivity].
  destruct (kind_shape (pk p)); try reflexivity. destruct (len_prefixed (pdata p)); reflexivity.
Qed.

Lemma concat_props : forall l, concat_chunks (flat_map prop_chunks l) = encode_all l.
Proof.
  induction l as [|p t IH]; cbn [flat_map concat_chunks encode_all]; [reflexivity|].
  rewrite concat_chunks_app, prop_chunks_concat, IH. destruct (prop_encode p); [|reflexivity]. destruct (encode_all t); reflexivity.
Qed.

Definition props_block (pp : properties) : option bytes :=
  match pp with PSlice l => encode_all l | PWithCorr c l => encode_all (c :: l) | PEncoded b => Some b end.

Lemma with_corr_chunks : forall c l, c_properties (PWithCorr c l) = c_properties (PSlice (c :: l)).
Proof. intros c l. unfold c_properties. cbn [props_size map sumN flat_map]. f_equal. f_equal. lia. Qed.

Lemma concat_c_slice : forall ps x, concat_chunks (c_properties (PSlice ps)) = Some x ->
  exists szb block, encode_all ps = Some block /\ varint_write (lenN block) = Some szb /\ x = szb ++ block.
Proof.
  intros ps x H. apply concat_chunks_cons_some in H as [szb [block [Es [Eb ->]]]].
  rewrite concat_props in Eb. exists szb, block. split; [exact Eb|]. split; [|reflexivity].
  rewrite (props_size_eq _ _ Eb). exact Es.
Qed.

Lemma concat_c_properties : forall pp x, concat_chunks (c_properties pp) = Some x ->
  exists szb block, props_block pp = Some block /\ varint_write (lenN block) = Some szb /\ x = szb ++ block.
Proof.
  intros [ps|b|c l] x H; [now apply concat_c_slice| |rewrite with_corr_chunks in H; now apply concat_c_slice].
  apply concat_chunks_cons_some in H as [szb [block [Es [Eb ->]]]]. injection Eb as <-.
  exists szb, b. now rewrite app_nil_r.
Qed.

Lemma encode_payload_inv : forall cap typ flags cs payload off bs,
  encode_chunks_payload cap typ flags cs payload = SOk off bs ->
  exists rl body, concat_chunks cs = Some body /\ varint_write (lenN (body ++ payload)) = Some rl /\
    bs = (typ * 16 + flags mod 16) :: rl ++ body ++ payload /\
    off + lenN bs = 5 + lenN (body ++ payload) /\ 5 + lenN (body ++ payload) <= cap.
Proof.
  intros cap typ flags cs payload off bs H.
  destruct (encode_payload_shape _ _ _ _ _ _ _ H) as [idx [body [rl [E R]]]].
  destruct (ser_push_content _ _ _ _ _ _ E) as [r [Hr ->]]. now exists rl, r.
Qed.

Lemma encode_chunks_inv : forall cap typ flags cs off bs,
  encode_chunks cap typ flags cs = SOk off bs ->
  exists rl body, concat_chunks cs = Some body /\ varint_write (lenN body) = Some rl /\
    bs = (typ * 16 + flags mod 16) :: rl ++ body /\ off + lenN bs = 5 + lenN body /\ 5 + lenN body <= cap.
Proof.
  intros cap typ flags cs off bs H. rewrite encode_chunks_as_payload in H.
  destruct (encode_payload_inv _ _ _ _ _ _ _ H) as [rl [body R]]. rewrite !app_nil_r in R. now exists rl, body.
Qed.

(* C08: what de_body decides from the first byte alone *)
Definition hdr_gate (hdr : N) : bool :=
  let typ := hdr / 16 in
  let flags := hdr mod 16 in
  negb (N.eqb typ 0) &&
  (if N.eqb typ 3 then true
   else if N.eqb typ 6 then N.eqb flags 2
   else if N.eqb typ 2 || N.eqb typ 4 || N.eqb typ 5 || N.eqb typ 7 || N.eqb typ 9 || N.eqb typ 11
           || N.eqb typ 13 || N.eqb typ 14 then N.eqb flags 0
   else true) &&
  (N.eqb typ 2 || N.eqb typ 3 || N.eqb typ 4 || N.eqb typ 5 || N.eqb typ 6 || N.eqb typ 7 || N.eqb typ 9
   || N.eqb typ 11 || N.eqb typ 13 || N.eqb typ 14) &&
  (if N.eqb typ 3 then negb (N.eqb ((hdr / 2) mod 4) 3) else true).

Lemma gate_rejects : forall hdr l, hdr_gate hdr = false -> de_body hdr l = None.
Proof.
  intros hdr l. unfold hdr_gate, de_body. cbv zeta.
  destruct (N.eqb (hdr / 16) 0); [reflexivity|]. cbn [negb andb].
  destruct (N.eqb_spec (hdr / 16) 3) as [E3|_].
  - rewrite E3. unfold qos_of_n. destruct (N.eqb_spec ((hdr / 2) mod 4) 3) as [->|]; intros H; [reflexivity|discriminate H].
  - destruct (N.eqb_spec (hdr / 16) 6) as [E6|_].
    + rewrite E6. destruct (N.eqb (hdr mod 16) 2); intros H; [discriminate H|reflexivity].
    + (* no other type is 3 or 6: the gate's list of types is then the list behind the flags test *)
      rewrite !orb_false_r, andb_true_r.
      destruct (_ || _ || _ || _ || _ || _ || _ || _) eqn:S.
      * destruct (N.eqb (hdr mod 16) 0); intros H; [discriminate H|reflexivity].
      * intros _. revert S.
        destruct (N.eqb (hdr / 16) 2); [discriminate|]. destruct (N.eqb (hdr / 16) 4); [discriminate|].
        destruct (N.eqb (hdr / 16) 5); [discriminate|]. destruct (N.eqb (hdr / 16) 7); [discriminate|].
        destruct (N.eqb (hdr / 16) 9); [discriminate|]. destruct (N.eqb (hdr / 16) 11); [discriminate|].
        destruct (N.eqb (hdr / 16) 13); [discriminate|]. destruct (N.eqb (hdr / 16) 14); [discriminate|].
        reflexivity.
Qed.

(* MQTT 5 table 2-2 / 2-3 for packets a server sends: type, and the flag nibble required for it; PUBLISH carries
   DUP/QoS/RETAIN there and QoS 3 is malformed.  (The implementation does not reject DUP=1 on a QoS 0 PUBLISH;
   that is outside the list of C08 and is reported as an observation.) *)
Definition spec_server_first_byte (hdr : N) : bool :=
  let typ := hdr / 16 in
  let flags := hdr mod 16 in
  if N.eqb typ 2 then N.eqb flags 0            (* CONNACK *)
  else if N.eqb typ 3 then negb (N.eqb ((flags / 2) mod 4) 3)   (* PUBLISH, QoS 0..2 *)
  else if N.eqb typ 4 then N.eqb flags 0       (* PUBACK *)
  else if N.eqb typ 5 then N.eqb flags 0       (* PUBREC *)
  else if N.eqb typ 6 then N.eqb flags 2       (* PUBREL *)
  else if N.eqb typ 7 then N.eqb flags 0       (* PUBCOMP *)
  else if N.eqb typ 9 then N.eqb flags 0       (* SUBACK *)
  else if N.eqb typ 11 then N.eqb flags 0      (* UNSUBACK *)
  else if N.eqb typ 13 then N.eqb flags 0      (* PINGRESP *)
  else if N.eqb typ 14 then N.eqb flags 0      (* DISCONNECT *)
  else false.                                  (* 0 reserved; 1, 8, 10, 12 client only; 15 AUTH not requested *)

Fixpoint upto (n : nat) : list N := match n with O => [] | S k => upto k ++ [N.of_nat k] end.

Lemma upto_complete : forall n x, x < N.of_nat n -> In x (upto n).
Proof.
  induction n as [|k IH]; intros x H; [lia|]. cbn [upto]. apply in_or_app.
  destruct (N.eq_dec x (N.of_nat k)); [right; now left | left; apply IH; lia].
Qed.

Lemma gate_table_256 : forallb (fun h => Bool.eqb (hdr_gate h) (spec_server_first_byte h)) (upto 256) = true.
Proof. vm_compute. reflexivity. Qed.

Theorem gate_is_spec : forall hdr, hdr < 256 -> hdr_gate hdr = spec_server_first_byte hdr.
Proof.
  intros hdr H. pose proof gate_table_256 as T. rewrite forallb_forall in T.
  specialize (T hdr (upto_complete 256 hdr H)). now apply Bool.eqb_prop in T.
Qed.

Theorem illegal_first_byte_rejected : forall hdr t, hdr < 256 -> spec_server_first_byte hdr = false -> from_buffer (hdr :: t) = None.
Proof.
  intros hdr t H Hs. unfold from_buffer. destruct (varint_read t) as [n body| |]; try reflexivity.
  rewrite gate_rejects; [reflexivity|]. now rewrite gate_is_spec.
Qed.

Theorem bad_remaining_length_rejected : forall hdr t, (forall v r, varint_read t <> VOk v r) -> from_buffer (hdr :: t) = None.
Proof. intros hdr t H. unfold from_buffer. destruct (varint_read t) as [n body| |] eqn:E; try reflexivity. exfalso. eapply H. reflexivity. Qed.

Theorem trailing_garbage_rejected : forall hdr t n body p x rest,
  varint_read t = VOk n body -> de_body hdr body = Some (p, x :: rest) ->
  match p with RPublish _ _ _ _ _ _ _ | RSubAck _ _ _ | RUnsubAck _ _ _ => False | _ => True end ->
  from_buffer (hdr :: t) = None.
Proof. intros hdr t n body p x rest Hv Hd Hp. unfold from_buffer. rewrite Hv, Hd. destruct p; try reflexivity; contradiction. Qed.

Lemma from_buffer_frame : forall hdr rl body, varint_write (lenN body) = Some rl ->
  from_buffer (hdr :: rl ++ body) =
  match de_body hdr body with
  | None => None
  | Some (p, []) => Some p
  | Some (p, rest) =>
      match p with
      | RPublish topic pid q r d ps _ => Some (RPublish topic pid q r d ps rest)
      | RSubAck pid ps _ => Some (RSubAck pid ps rest)
      | RUnsubAck pid ps _ => Some (RUnsubAck pid ps rest)
      | _ => None
      end
  end.
Proof.
  intros hdr rl body H. unfold from_buffer. rewrite (varint_roundtrip _ _ _ H).
  destruct (de_body hdr body) as [[p [|x rest]]|]; reflexivity.
Qed.

Lemma from_buffer_frame_whole : forall hdr rl body p, varint_write (lenN body) = Some rl ->
  de_body hdr body = Some (p, []) -> from_buffer (hdr :: rl ++ body) = Some p.
Proof. intros hdr rl body p H Hd. now rewrite (from_buffer_frame _ _ _ H), Hd. Qed.

Lemma from_buffer_frame_publish : forall hdr rl body topic pid q r d ps payload, varint_write (lenN body) = Some rl ->
  de_body hdr body = Some (RPublish topic pid q r d ps [], payload) ->
  from_buffer (hdr :: rl ++ body) = Some (RPublish topic pid q r d ps payload).
Proof. intros hdr rl body topic pid q r d ps payload H Hd. rewrite (from_buffer_frame _ _ _ H), Hd. now destruct payload. Qed.

Lemma low_byte : forall x, x / 256 * 256 + x mod 256 = x.
Proof. intros. rewrite N.mul_comm. symmetry. apply N.div_mod'. Qed.

Lemma read_u16_be : forall v t, v < 65536 -> read_u16 (u16_be v ++ t) = Some (v, t).
Proof.
  intros v t H. unfold u16_be. cbn [app read_u16]. rewrite N.shiftr_div_pow2. change (2 ^ 8) with 256.
  rewrite (N.mod_small (v / 256)) by (apply N.div_lt_upper_bound; [discriminate|exact H]). now rewrite low_byte.
Qed.

Lemma u32_be_read : forall v t, v < 4294967296 ->
  exists a b c d, u32_be v ++ t = a :: b :: c :: d :: t /\ ((a * 256 + b) * 256 + c) * 256 + d = v.
Proof.
  intros v t H. unfold u32_be. cbn [app]. eexists _, _, _, _. split; [reflexivity|].
  rewrite !N.shiftr_div_pow2. change (2 ^ 8) with 256. change (2 ^ 16) with (256 * 256). change (2 ^ 24) with (256 * 256 * 256).
  rewrite <- !N.div_div by discriminate.
  rewrite (N.mod_small (v / 256 / 256 / 256)) by (repeat (apply N.div_lt_upper_bound; [discriminate|]); exact H).
  now rewrite !low_byte.
Qed.

Lemma take_exact_app : forall (d t : bytes), take_exact (lenN d) (d ++ t) = Some (d, t).
Proof.
  intros. unfold take_exact. rewrite lenN_app. destruct (N.ltb_spec (lenN d + lenN t) (lenN d)); [lia|].
  now rewrite takeN_app_exact, dropN_app_exact.
Qed.

Lemma read_field_enc : forall is_str d x t, len_prefixed d = Some x ->
  read_field is_str (x ++ t) = if is_str && negb (utf8_valid d) then FErr (2 + lenN d) else FOk d t (2 + lenN d).
Proof.
  intros is_str d x t H. apply len_prefixed_inv in H as [-> L]. unfold read_field.
  now rewrite <- app_assoc, read_u16_be, take_exact_app by exact L.
Qed.

Lemma read_field_prefixed : forall is_str d x t, len_prefixed d = Some x ->
  (is_str = true -> utf8_valid d = true) -> read_field is_str (x ++ t) = FOk d t (2 + lenN d).
Proof.
  intros is_str d x t H Hu. rewrite (read_field_enc _ _ _ _ H).
  destruct is_str; [rewrite Hu by reflexivity|]; reflexivity.
Qed.

Lemma de_props_block : forall block szb t, varint_write (lenN block) = Some szb ->
  de_props (szb ++ block ++ t) = Some (block, t).
Proof. intros block szb t H. unfold de_props. rewrite (varint_roundtrip _ _ _ H). apply take_exact_app. Qed.

Lemma qos_of_n_n : forall q, qos_of_n (qos_n q) = Some q.
Proof. now intros []. Qed.

Lemma publish_hdr_arith : forall (q : qos) (r d : bool),
  let flags := qos_n q * 2 + b2n r + (if d then 8 else 0) in
  let hdr := 3 * 16 + flags mod 16 in
  hdr / 16 = 3 /\ (hdr / 2) mod 4 = qos_n q /\ N.odd hdr = r /\ N.odd (hdr / 8) = d.
Proof.
  intros q r d. destruct q; destruct r; destruct d; vm_compute; repeat split; reflexivity.
Qed.

Definition pid_matches_qos (q : qos) (pid : option N) : Prop :=
  match q, pid with
  | Q0, None => True
  | Q0, Some _ => False
  | _, Some id => id < 65536
  | _, None => False
  end.

Theorem publish_decodes : forall cap r off bs block,
  enc_publish cap r = SOk off bs -> props_block (pq_props r) = Some block ->
  utf8_valid (pq_topic r) = true ->
  pid_matches_qos (pq_qos r) (pq_pid r) ->
  from_buffer bs = Some (RPublish (pq_topic r) (pq_pid r) (pq_qos r) (pq_retain r) (pq_dup r) block (pq_payload r)).
Proof.
  intros cap r off bs block He Hb Hu Hid. unfold enc_publish in He.
  destruct (encode_payload_inv _ _ _ _ _ _ _ He) as [rl [body [Hc [Hrl [-> _]]]]].
  (* the fields are topic, identifier, property block; they are read back in that order *)
  unfold publish_chunks in Hc.
  apply concat_chunks_cons_some in Hc as [tp [b1 [Et [Hc ->]]]].
  apply concat_chunks_app_some in Hc as [pidb [pb [Epid [Epb ->]]]].
  destruct (concat_c_properties _ _ Epb) as [szb [blk [Eb [Esz ->]]]]. rewrite Hb in Eb. injection Eb as <-.
  apply (from_buffer_frame_publish _ _ _ _ _ _ _ _ _ _ Hrl).
  destruct (publish_hdr_arith (pq_qos r) (pq_retain r) (pq_dup r)) as [A1 [A2 [A3 A4]]]. cbv zeta in A1, A2, A3, A4.
  unfold publish_flags, de_body. rewrite A1. change (3 =? 0) with false. change (3 =? 3) with true. cbn [negb].
  change (3 =? 2) with false. rewrite A2, A3, A4, qos_of_n_n.
  rewrite <- !app_assoc. rewrite (read_field_prefixed true _ _ _ Et (fun _ => Hu)).
  unfold pid_matches_qos in Hid.
  destruct (pq_pid r) as [id|], (pq_qos r); try contradiction; cbn [concat_chunks c_u16] in Epid.
  1,2: assert (pidb = u16_be id) as -> by (rewrite app_nil_r in Epid; congruence);
       rewrite read_u16_be by exact Hid; now rewrite (de_props_block _ _ _ Esz).
  assert (pidb = []) as -> by congruence. cbn [app]. now rewrite (de_props_block _ _ _ Esz).
Qed.

Theorem publish_roundtrip : forall cap r off bs ps block,
  enc_publish cap r = SOk off bs ->
  pq_props r = PSlice ps -> encode_all ps = Some block ->
  utf8_valid (pq_topic r) = true ->
  pid_matches_qos (pq_qos r) (pq_pid r) ->
  from_buffer bs = Some (RPublish (pq_topic r) (pq_pid r) (pq_qos r) (pq_retain r) (pq_dup r) block (pq_payload r)).
Proof. intros cap r off bs ps block He Hp Hb. apply (publish_decodes cap r off bs block He). now rewrite Hp. Qed.

(* canonical representation of a property value in the model's record (unused fields empty) *)
Definition prop_canon (p : prop) : bool :=
  match kind_shape (pk p) with
  | ShU8 | ShU16 | ShU32 | ShVar => match pdata p, pdata2 p with [], [] => true | _, _ => false end
  | ShStr | ShBin => N.eqb (pnum p) 0 && match pdata2 p with [] => true | _ => false end
  | ShPair => N.eqb (pnum p) 0
  end.

Lemma kind_of_id_id : forall k, kind_of_id (kind_id k) = Some k.
Proof. destruct k; reflexivity. Qed.

Lemma mkprop_eta : forall p, mkprop (pk p) (pnum p) (pdata p) (pdata2 p) = p.
Proof. destruct p; reflexivity. Qed.

Lemma varint_read_kind : forall k l, varint_read (kind_id k :: l) = VOk (kind_id k) l.
Proof. intros. exact (varint_roundtrip _ _ l (kind_id_write k)). Qed.

Theorem prop_decode_encode : forall p bs rest, prop_encode p = Some bs -> prop_wf p = true -> prop_canon p = true ->
  prop_decode (bs ++ rest) = PDOk p (lenN bs).
Proof.
  intros [k n d d2] bs rest He Hw Hc. destruct (prop_encode_inv _ _ He) as [v [-> Hv]].
  unfold prop_wf, prop_canon in *. cbn [pk pnum pdata pdata2 app] in *.
  unfold prop_decode. rewrite varint_read_kind, kind_of_id_id, lenN_cons, N.add_sub.
  destruct (kind_shape k).
  - subst v. destruct d, d2; try discriminate. reflexivity.
  - subst v. rewrite read_u16_be by lia. destruct d, d2; try discriminate. reflexivity.
  - subst v. destruct (u32_be_read n rest ltac:(lia)) as [a [b [c [e [-> ->]]]]].
    destruct d, d2; try discriminate. reflexivity.
  - rewrite (varint_roundtrip _ _ _ Hv). destruct d, d2; try discriminate. f_equal. lens. lia.
  - apply andb_true_iff in Hw as [Hu _]. rewrite (read_field_prefixed true _ _ _ Hv (fun _ => Hu)).
    apply andb_true_iff in Hc as [Hn H2]. apply N.eqb_eq in Hn as ->. destruct d2; [|discriminate].
    f_equal. apply len_prefixed_inv in Hv as [-> _]. lens. lia.
  - rewrite (read_field_prefixed false _ _ _ Hv) by discriminate.
    apply andb_true_iff in Hc as [Hn H2]. apply N.eqb_eq in Hn as ->. destruct d2; [|discriminate].
    f_equal. apply len_prefixed_inv in Hv as [-> _]. lens. lia.
  - destruct Hv as [x [x2 [Ed [Ed2 ->]]]].
    apply andb_true_iff in Hw as [Hw U2']. apply andb_true_iff in Hw as [Hw U2]. apply andb_true_iff in Hw as [U1 _].
    rewrite <- app_assoc, (read_field_prefixed true _ _ _ Ed (fun _ => U1)), (read_field_prefixed true _ _ _ Ed2 (fun _ => U2)).
    apply N.eqb_eq in Hc as ->. f_equal.
    apply len_prefixed_inv in Ed as [-> _]. apply len_prefixed_inv in Ed2 as [-> _]. lens. lia.
Qed.

Lemma props_iter_fuel_step : forall f p a b, prop_encode p = Some a -> prop_wf p = true -> prop_canon p = true ->
  props_iter_fuel (S f) (a ++ b) = Some p :: props_iter_fuel f b.
Proof.
  intros f p a b Ea Hw Hc. destruct (prop_encode_inv _ _ Ea) as [v [E _]]. cbn [props_iter_fuel].
  rewrite (prop_decode_encode p a b Ea Hw Hc), dropN_app_exact. now rewrite E.
Qed.

Theorem props_iter_roundtrip : forall ps block,
  encode_all ps = Some block -> forallb prop_wf ps = true -> forallb prop_canon ps = true ->
  props_iter_encoded block = map Some ps.
Proof.
  intros ps block He Hw Hc. unfold props_iter_encoded.
  (* any fuel that covers the block will do: each property takes at least one byte *)
  assert (G : forall fuel, (length block <= fuel)%nat -> props_iter_fuel fuel block = map Some ps); [|now apply G].
  revert block He Hw Hc. induction ps as [|p t IH]; intros block He Hw Hc fuel Hf; cbn [encode_all map forallb] in *.
  - injection He as <-. now destruct fuel.
  - destruct (prop_encode p) as [a|] eqn:Ea; [|discriminate]. destruct (encode_all t) as [b|] eqn:Eb; [|discriminate].
    injection He as <-. apply andb_true_iff in Hw as [Hw1 Hw2]. apply andb_true_iff in Hc as [Hc1 Hc2].
    destruct (prop_encode_inv _ _ Ea) as [v [Ev _]]. rewrite app_length, Ev in Hf. cbn [length] in Hf.
    destruct fuel as [|f]; [clear - Hf; lia|]. rewrite (props_iter_fuel_step f p a b Ea Hw1 Hc1). f_equal.
    apply IH; [reflexivity|assumption|assumption|clear - Hf; lia].
Qed.

Lemma invalid_topic_rejected : forall hdr topic rest x t,
  hdr / 16 = 3 -> len_prefixed topic = Some x -> utf8_valid topic = false ->
  varint_read t = VOk (lenN (x ++ rest)) (x ++ rest) -> from_buffer (hdr :: t) = None.
Proof.
  intros hdr topic rest x t H3 Hx Hu Hv. unfold from_buffer. rewrite Hv. unfold de_body. rewrite H3.
  change (3 =? 0) with false. change (3 =? 3) with true. cbn [negb]. change (3 =? 2) with false.
  destruct (qos_of_n ((hdr / 2) mod 4)); [|reflexivity].
  now rewrite (read_field_enc true _ _ _ Hx), Hu.
Qed.
