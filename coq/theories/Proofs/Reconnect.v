(* Reconnect.v — C12: what connect() does before and around the handshake, independent of all history:
   the preamble clears every piece of per-transport state; the CONNECT is encoded into the free tail of the
   transmit arena and that encoding succeeds exactly when the CONNECT fits there; a plain successful CONNACK
   is always accepted.  The full-arena case in which it does not fit is a reachable state (known finding K12). *)
From Coq Require Import List NArith Lia.
From Minimq Require Import Bytes Varint Props Ser De Reader Arena Core Machine Run Status Util SerLemmas CodecProofs.
Import ListNotations.
Local Open Scope N_scope.

(* the session after the first lines of connect() (Machine.op_connect): reader, timers and resumed flag reset, replay
   armed; and after the compaction that makes room for the CONNECT *)
Definition connect_preamble (s0 : session) : session :=
  set_ob (set_rt (set_reader s0 (reader_reset (s_reader s0))) (reset_transport (s_rt s0))) (arm_replay (s_ob s0)).

Definition connect_scratch (s0 : session) : session :=
  set_ob (connect_preamble s0) (compact (s_ob (connect_preamble s0))).

Lemma op_connect_encode : forall fuel w,
  let s2 := connect_scratch (w_sess w) in
  match enc_connect (ob_cap (s_ob s2) - ob_used (s_ob s2)) (connect_request s2) with
  | SErr e => op_connect fuel w = (upd_sess w s2, OFail (err_of_serr e))
  | SOk _ _ => True
  end.
Proof.
  intros fuel w s2. unfold op_connect. fold (connect_preamble (w_sess w)).
  change (set_ob (connect_preamble (w_sess w)) (compact (s_ob (connect_preamble (w_sess w))))) with s2.
  change (compact (s_ob (connect_preamble (w_sess w)))) with (s_ob s2).
  destruct (enc_connect _ _); [exact I|reflexivity].
Qed.

Theorem preamble_clean : forall s0,
  let s1 := connect_preamble s0 in
  rdata (s_reader s1) = [] /\ rplen (s_reader s1) = None /\ rcap (s_reader s1) = rcap (s_reader s0) /\
  rt_next_ping (s_rt s1) = None /\ rt_ping_timeout (s_rt s1) = None /\ rt_resumed (s_rt s1) = false /\
  Forall (fun e => re_st e = SWrite 0) (ob_ret (s_ob s1)) /\
  Forall (fun e => le_st e = SWrite 0) (ob_rel (s_ob s1)) /\
  Forall (fun e => ce_st e = SWrite 0) (ob_ctl (s_ob s1)) /\
  s_sp s1 = s_sp s0 /\ s_srv s1 = s_srv s0 /\ s_gen s1 = s_gen s0 /\ s_client_id s1 = s_client_id s0.
Proof.
  intros s0 s1. unfold s1, connect_preamble. cbn [set_ob set_rt set_reader s_reader s_rt s_ob reader_reset reset_transport
    rdata rplen rcap rt_next_ping rt_ping_timeout rt_resumed s_sp s_srv s_gen s_client_id].
  repeat (split; [reflexivity|]).
  destruct (has_pending_state (s_ob s0)) eqn:E.
  - destruct (arm_replay_states (s_ob s0) E) as [H1 [H2 [H3 _]]]. repeat split; assumption.
  - unfold arm_replay. rewrite E. cbn [negb].
    unfold has_pending_state in E. destruct (ob_ctl (s_ob s0)); [|discriminate]. destruct (ob_ret (s_ob s0)); [|discriminate].
    destruct (ob_rel (s_ob s0)); [|discriminate]. repeat split; constructor.
Qed.

Definition chunk_len (c : chunk) : N := match c with Some d => lenN d | None => 0 end.
Definition chunks_ok (cs : list chunk) : bool := forallb (fun c => match c with Some _ => true | None => false end) cs.
Definition chunks_len (cs : list chunk) : N := sumN (map chunk_len cs).

Lemma ser_push_room : forall cs cap idx acc, chunks_ok cs = true ->
  if cap - idx <? chunks_len cs then ser_push cap idx cs acc = SErr EMem
  else exists body, ser_push cap idx cs acc = SOk (idx + chunks_len cs) body.
Proof.
  induction cs as [|c t IH]; intros cap idx acc Hok; unfold chunks_len in *; cbn [ser_push map sumN].
  - destruct (N.ltb_spec (cap - idx) 0); [lia|]. exists acc. f_equal. lia.
  - cbn [chunks_ok forallb] in Hok. destruct c as [d|]; [|discriminate]. specialize (IH cap (idx + lenN d) (acc ++ d) Hok).
    cbn [chunk_len]. unfold sat_sub. set (n := sumN (map chunk_len t)) in *.
    destruct (N.ltb_spec (cap - idx) (lenN d)); [destruct (N.ltb_spec (cap - idx) (lenN d + n)); [reflexivity|lia]|].
    destruct (N.ltb_spec (cap - (idx + lenN d)) n), (N.ltb_spec (cap - idx) (lenN d + n)); [exact IH|lia|lia|].
    destruct IH as [body ->]. exists body. f_equal. lia.
Qed.

Theorem encode_chunks_succeeds : forall cap typ flags cs, chunks_ok cs = true ->
  5 + chunks_len cs <= cap -> chunks_len cs <= VARINT_MAX ->
  exists off bs, encode_chunks cap typ flags cs = SOk off bs.
Proof.
  intros cap typ flags cs Hok Hl Hv. unfold encode_chunks. pose proof (ser_push_room cs cap 5 [] Hok) as P.
  destruct (N.ltb_spec (cap - 5) (chunks_len cs)); [lia|]. destruct P as [body ->]. unfold finalize.
  replace (5 + chunks_len cs - 5) with (chunks_len cs) by lia.
  unfold varint_write. destruct (N.ltb_spec VARINT_MAX (chunks_len cs)) as [L|L]; [lia|].
  destruct (N.ltb_spec cap 5); [lia|]. eexists _, _. reflexivity.
Qed.

Theorem encode_chunks_no_room : forall cap typ flags cs, chunks_ok cs = true ->
  cap < 5 + chunks_len cs -> encode_chunks cap typ flags cs = SErr EMem.
Proof.
  intros cap typ flags cs Hok Hl. unfold encode_chunks. pose proof (ser_push_room cs cap 5 [] Hok) as P.
  destruct (N.ltb_spec (cap - 5) (chunks_len cs)); [now rewrite P|].
  (* nothing to push and fewer than the five bytes reserved for the fixed header *)
  destruct P as [body ->]. unfold finalize. destruct (varint_write _); [|reflexivity]. destruct (N.ltb_spec cap 5); [reflexivity|lia].
Qed.

Theorem connect_encodes_iff_room : forall s,
  let s2 := connect_scratch s in
  let free := ob_cap (s_ob s2) - ob_used (s_ob s2) in
  let cs := connect_chunks (connect_request s2) in
  chunks_ok cs = true -> chunks_len cs <= VARINT_MAX ->
  (5 + chunks_len cs <= free -> exists off bs, enc_connect free (connect_request s2) = SOk off bs) /\
  (free < 5 + chunks_len cs -> enc_connect free (connect_request s2) = SErr EMem).
Proof.
  intros s s2 free cs Hok Hv. unfold enc_connect. fold cs. split; intros H.
  - now apply encode_chunks_succeeds.
  - now apply encode_chunks_no_room.
Qed.

(* at most five bytes: type, remaining length, identifier, reason *)
Lemma enc_ack_ok : forall typ pid rc, exists off bs, enc_ack CONTROL_PACKET_LEN typ pid rc = SOk off bs.
Proof.
  intros typ pid rc. unfold enc_ack.
  apply (encode_chunks_succeeds CONTROL_PACKET_LEN typ (if N.eqb typ 6 then 2 else 0) (ack_chunks pid rc));
    [reflexivity|unfold chunks_len, ack_chunks, CONTROL_PACKET_LEN; cbn [map sumN chunk_len c_u16 c_u8]; rewrite lenN_u16; cbn; lia
    |unfold chunks_len, ack_chunks, VARINT_MAX; cbn [map sumN chunk_len c_u16 c_u8]; rewrite lenN_u16; cbn; lia].
Qed.

Lemma enc_ack_len : forall typ pid rc off bs, enc_ack CONTROL_PACKET_LEN typ pid rc = SOk off bs -> lenN bs <= 5.
Proof.
  intros typ pid rc off bs E. unfold enc_ack in E.
  destruct (encode_chunks_inv _ _ _ _ _ _ E) as [rl [body [Hc [Hv [Hb _]]]]].
  assert (Hbody : lenN body = 3).
  { unfold ack_chunks, concat_chunks in Hc. cbn in Hc. inversion Hc; subst body. reflexivity. }
  rewrite Hbody in Hv. inversion Hv; subst rl. rewrite Hb, lenN_cons, lenN_app, Hbody. cbn. lia.
Qed.

Lemma encode_control_ok : forall a, exists off bs, encode_control_packet a = SOk off bs.
Proof.
  intros [pid rc|pid rc|pid rc|]; cbn [encode_control_packet]; [apply enc_ack_ok..|].
  unfold enc_pingreq. eexists _, _. vm_compute. reflexivity.
Qed.

Lemma encode_control_len : forall a off bs, encode_control_packet a = SOk off bs -> lenN bs <= 5.
Proof.
  intros [pid rc|pid rc|pid rc|] off bs E; cbn [encode_control_packet] in E; [exact (enc_ack_len _ _ _ _ _ E)..|].
  vm_compute in E. inversion E; subst. vm_compute. discriminate.
Qed.

Theorem plain_connack_accepted : forall s sp now,
  snd (connack_process s (Some (RConnAck sp 0 [])) now) = CAOk sp.
Proof.
  intros s sp now. unfold connack_process. change (rc_success 0) with true. cbn [negb].
  change (props_iter_encoded []) with (@nil (option prop)). cbn [connack_props]. reflexivity.
Qed.

(* known finding K12: a reachable world whose arena is so full that connect() can never succeed.
   tx arena 48 bytes, one QoS 1 publish of 20 payload bytes retained and unacknowledged, connection dropped,
   healthy transport (empty script = every I/O succeeds in full), conformant broker (mode 2) *)
Definition k12_tokens : list N :=
  [64; 48; 1; 116; 0; 0; 0; 0; 0; 4;
   0; 1; 0; 5; 32; 3; 0; 0; 0;
   1; 1; 97; 0; 0; 1; 20; 120; 120; 120; 120; 120; 120; 120; 120; 120; 120; 120; 120; 120; 120; 120; 120; 120; 120; 120; 120; 0;
   10;
   12; 2;
   0].

Definition k12_world : option world :=
  match p_case k12_tokens with Some (c, []) => Some (run_case c) | _ => None end.

(* what the statement below says of the run and of the connect() that follows it, computed once *)
Lemma k12_observed :
  match k12_world with
  | Some w =>
      w_script w = [] /\ w_broker w = 2 /\ w_conn w = false /\
      (exists e, ob_ret (s_ob (w_sess w)) = [e]) /\
      snd (op_connect FUEL w) = OFail EBufferTooSmall /\
      ob_ret (s_ob (w_sess (fst (op_connect FUEL w)))) = ob_ret (s_ob (connect_scratch (w_sess w)))
  | None => False
  end.
Proof. vm_compute. repeat split. eexists. reflexivity. Qed.

Theorem reconnect_refuted_full_arena :
  exists w, k12_world = Some w /\
    w_script w = [] /\ w_broker w = 2 /\ w_conn w = false /\
    (exists e, ob_ret (s_ob (w_sess w)) = [e]) /\
    snd (op_connect FUEL w) = OFail EBufferTooSmall /\
    (* and connect() leaves the retained packet where it is: the next attempt meets the same arena *)
    ob_ret (s_ob (w_sess (fst (op_connect FUEL w)))) = ob_ret (s_ob (connect_scratch (w_sess w))).
Proof.
  pose proof k12_observed as H. destruct k12_world as [w|]; [|contradiction]. exists w. split; [reflexivity|exact H].
Qed.
