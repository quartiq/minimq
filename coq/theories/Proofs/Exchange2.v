(* Exchange2.v — C16, one whole QoS 2 exchange against the answering broker: after publish() (Exchange.v: the PUBLISH is on
   the wire, the PUBREC has arrived), the first poll() reads the PUBREC, drops the retained PUBLISH, queues, writes and flushes
   the PUBREL — to which the broker answers with the PUBCOMP — and the second poll() reads the PUBCOMP and completes the
   exchange: nothing retained, nothing to release, the quota slot returned. *)
From Minimq Require Import Bytes Varint Props Ser De Reader Arena Core Machine Run Lts
  VarintProofs CodecProofs Reconnect BrokerProofs WireInv Wire
  PingQuiet Healthy Owed Sends Framing Liveness Exchange.
Import ListNotations.
Local Open Scope N_scope.
Local Opaque u16_be.

Lemma rel_frame : forall pid, exists rl,
  rel_bytes pid 0 = 98 :: rl ++ (u16_be pid ++ [0]) /\ varint_write (lenN (u16_be pid ++ [0])) = Some rl.
Proof.
  intros pid. unfold rel_bytes, encode_pubrel. destruct (enc_ack_ok 6 pid 0) as [off [bs E]]. rewrite E.
  unfold enc_ack in E. destruct (encode_chunks_inv _ _ _ _ _ _ E) as [rl [body [Hc [Hv [Hb _]]]]].
  unfold ack_chunks, c_u16, c_u8 in Hc. cbn [concat_chunks] in Hc. change (rc_norm 0) with 0 in Hc. rewrite app_nil_r in Hc.
  inversion Hc; subst body. exists rl. split; [exact Hb|exact Hv].
Qed.

Lemma broker_reply_pubrel : forall mode rl pid, varint_write (lenN (u16_be pid ++ [0])) = Some rl ->
  broker_reply mode (98 :: rl ++ (u16_be pid ++ [0])) = 112 :: [2] ++ u16_be pid.
Proof.
  intros mode rl pid Hrl. unfold broker_reply. rewrite (varint_roundtrip _ _ _ Hrl).
  change (98 / 16) with 6. change (6 =? 3) with false. change (6 =? 6) with true. cbv iota.
  destruct (u16_be_two pid) as [a [b E]]. rewrite E. reflexivity.
Qed.

Lemma check_pubrel_none : forall pid rc, check_pubrel_size None pid rc = None.
Proof.
  intros. unfold check_pubrel_size, encode_pubrel. destruct (enc_ack_ok 6 pid rc) as [off [bs E]]. rewrite E. reflexivity.
Qed.

Definition rel_entry (pid : N) (st : sstate) : lentry := {| le_pid := pid; le_rc := 0; le_st := st |}.

Lemma single_rel_step : forall o pid, ob_ctl o = [] -> ob_rel o = [rel_entry pid (SWrite 0)] -> ob_ret o = [] ->
  next_step o = Some (StRel pid 0 (SWrite 0)).
Proof.
  intros o pid Hc Hl Hr. unfold next_step, next_step_pass, orelse, find_ctl, find_rel, find_ret. rewrite Hc, Hl, Hr.
  cbn [find rel_entry le_st le_pid le_rc]. cbn [matches_priority is_in_progress is_fresh]. change (0 =? 0) with true. cbn [negb]. reflexivity.
Qed.

Lemma single_rel_sent_no_step : forall o pid, ob_ctl o = [] -> ob_rel o = [rel_entry pid SSent] -> ob_ret o = [] -> next_step o = None.
Proof.
  intros o pid Hc Hl Hr. unfold next_step, next_step_pass, orelse, find_ctl, find_rel, find_ret. rewrite Hc, Hl, Hr. reflexivity.
Qed.

Lemma single_rel_step_result : forall s pid len now, ob_rel (s_ob s) = [rel_entry pid (SWrite 0)] ->
  let s' := fst (complete_flush (fst (set_written s (FRel pid) (0 + len) len)) (FRel pid) now) in
  ob_ctl (s_ob s') = ob_ctl (s_ob s) /\ ob_rel (s_ob s') = [rel_entry pid SSent] /\ ob_ret (s_ob s') = ob_ret (s_ob s) /\
  ob_buf (s_ob s') = ob_buf (s_ob s) /\ s_rt s' = note_outbound_activity (s_rt s) now /\ s_reader s' = s_reader s.
Proof.
  intros s pid len now Hr. cbv zeta. unfold complete_flush, set_written, set_release_written, flush_release.
  rewrite Hr. cbn [update_first rel_entry le_pid]. rewrite N.eqb_refl. cbn [fst set_ob s_ob with_rel ob_rel update_first le_pid].
  rewrite N.eqb_refl. cbn [fst set_rt set_ob s_ob s_rt s_reader with_rel ob_rel ob_ctl ob_ret ob_buf le_pid le_rc].
  repeat split.
Qed.

Lemma owed_single_rel : forall o pid, ob_ctl o = [] -> ob_rel o = [rel_entry pid (SWrite 0)] -> ob_ret o = [] -> owed o = rel_bytes pid 0.
Proof.
  intros o pid Hc Hl Hr. unfold owed, part_of, fresh_of. rewrite Hc, Hl, Hr. unfold Pq, Fq. cbn [map concat app rel_entry le_st le_pid le_rc].
  cbn [rest_part rest_fresh is_fresh]. change (0 =? 0) with true. cbv iota. unfold lbytes. cbn [le_pid le_rc app]. rewrite app_nil_r. reflexivity.
Qed.

Lemma handle_pubrec_single : forall s e pid,
  ob_rel (s_ob s) = [] -> ob_ret (s_ob s) = [sent_entry e] -> re_pid e = pid -> rt_mps (s_rt s) = None ->
  exists s4, handle_packet s (RPubRec pid 0) = (s4, HOk false) /\
    s_ob s4 = {| ob_buf := ob_buf (s_ob s); ob_used := 0; ob_ctl := ob_ctl (s_ob s); ob_ret := []; ob_rel := [rel_entry pid (SWrite 0)] |} /\
    s_rt s4 = s_rt s /\ s_reader s4 = s_reader s.
Proof.
  intros s e pid El Er Epid Hmps. eexists. split.
  - cbn [handle_packet]. unfold ack_packet. rewrite Er. cbn [remove_first_ret sent_entry re_pid]. rewrite Epid, N.eqb_refl.
    unfold compact. cbn [ob_ret compact_go ob_buf ob_used ob_ctl ob_rel]. change (rc_success 0) with true. cbn [negb].
    cbn [set_ob s_rt s_ob]. rewrite Hmps, check_pubrel_none.
    unfold queue_release. cbn [ob_rel]. rewrite El. cbn [glen]. change (MAX_PENDING_RELEASE <=? 0) with false. cbv iota. reflexivity.
  - repeat split.
Qed.

Lemma handle_pubcomp_single : forall s pid, ob_rel (s_ob s) = [rel_entry pid SSent] ->
  handle_packet s (RPubComp pid 0) =
    (set_rt (set_ob s {| ob_buf := ob_buf (s_ob s); ob_used := ob_used (s_ob s); ob_ctl := ob_ctl (s_ob s); ob_ret := ob_ret (s_ob s); ob_rel := [] |})
            (quota_inc (s_rt s)), HOk false).
Proof.
  intros s pid El. cbn [handle_packet]. unfold ack_release. rewrite El.
  cbn [remove_first_rel rel_entry le_pid]. rewrite N.eqb_refl. cbn [negb]. change (rc_success 0) with true. reflexivity.
Qed.

Theorem poll_pubrec_sends_pubrel_rt : forall w pid e t,
  Hc w -> pid < 65536 -> 4 <= rcap (rd w) -> rdata (rd w) = [] -> rplen (rd w) = None ->
  ob_ctl (s_ob (w_sess w)) = [] -> ob_rel (s_ob (w_sess w)) = [] -> ob_ret (s_ob (w_sess w)) = [sent_entry e] -> re_pid e = pid ->
  rt_ka_ms (s_rt (w_sess w)) = 0 -> rt_next_ping (s_rt (w_sess w)) = None -> rt_ping_timeout (s_rt (w_sess w)) = None ->
  w_broker w = 1 -> w_txbuf w = [] -> w_inq w = [(t, 80 :: [2] ++ u16_be pid)] -> t <= w_now w -> w_last_arrival w <= w_now w ->
  exists w',
    op_poll FUEL w = (w', ODone None) /\ w_wire w' = w_wire w ++ rel_bytes pid 0 /\
    w_inq w' = [(w_now w, 112 :: [2] ++ u16_be pid)] /\
    Hc w' /\ rdata (rd w') = [] /\ rplen (rd w') = None /\ rcap (rd w') = rcap (rd w) /\ w_now w' = w_now w /\
    ob_ctl (s_ob (w_sess w')) = [] /\ ob_ret (s_ob (w_sess w')) = [] /\ ob_rel (s_ob (w_sess w')) = [rel_entry pid SSent] /\
    rt_ka_ms (s_rt (w_sess w')) = 0 /\ rt_next_ping (s_rt (w_sess w')) = None /\ rt_ping_timeout (s_rt (w_sess w')) = None /\
    w_broker w' = 1 /\ w_txbuf w' = [] /\ w_last_arrival w' = w_now w /\
    rt_quota (s_rt (w_sess w')) = rt_quota (s_rt (w_sess w)) /\ rt_maxquota (s_rt (w_sess w')) = rt_maxquota (s_rt (w_sess w)) /\
    ob_buf (s_ob (w_sess w')) = ob_buf (s_ob (w_sess w)) /\ rt_mps (s_rt (w_sess w')) = None /\
    rt_maxqos (s_rt (w_sess w')) = rt_maxqos (s_rt (w_sess w)).
Proof.
  intros w pid e t Hcw Hp Hcap Hd Hpl Ec El Er Epid Hka Hnp Hpt Hbr Htx Hi Ht Hla.
  pose proof Hcw as [Hs [Hl [I [Hmps [_ [HB _]]]]]].
  set (s3 := set_reader (w_sess w) (reader_reset (rd w))).
  destruct (handle_pubrec_single s3 e pid El Er Epid Hmps) as [s4 [Hh [Ob4 [Rt4 Rd4]]]].
  cbn [s3 set_reader s_ob s_rt s_reader] in Ob4, Rt4, Rd4.
  destruct (no_timers_quiet (w_sess w) (w_now w) Hnp Hpt) as [Hto Hq].
  destruct (poll_takes_packet w 80 [2] (u16_be pid) t (RPubRec pid 0) s4 false ltac:(rewrite lenN_u16; reflexivity))
    as [f [w4 [S4 [L4 [Q4 [N4 [C4 [W4 [B4 [_ Hpoll]]]]]]]]]]; try assumption;
    try (rewrite lenN_ack4; first [exact Hcap|discriminate]); [exact (single_sent_no_step _ e Ec El Er)|exact (from_buffer_ack4 80 RPubRec pid de_body_pubrec Hp)|].
  injection B4 as Bb Bt Bl.
  (* the engine continues from w4: the PUBREL is written and flushed *)
  assert (Ec4 : ob_ctl (s_ob (w_sess w4)) = []) by (rewrite S4, Ob4; exact Ec).
  assert (El4 : ob_rel (s_ob (w_sess w4)) = [rel_entry pid (SWrite 0)]) by (rewrite S4, Ob4; reflexivity).
  assert (Er4 : ob_ret (s_ob (w_sess w4)) = []) by (rewrite S4, Ob4; reflexivity).
  assert (Hc4 : Hc w4).
  { apply Hc_no_timeout; rewrite ?S4, ?Rt4, ?Ob4; try assumption.
    - replace s4 with (fst (handle_packet s3 (RPubRec pid 0))) by (rewrite Hh; reflexivity).
      eapply WInv_step; [apply SS_packet|]. eapply WInv_step; [apply SS_reader|exact I].
    - unfold Fr. cbn [ob_ctl ob_rel ob_ret]. rewrite Ec. repeat split; repeat constructor. }
  destruct (no_timers_quiet (w_sess w4) (w_now w4)) as [Hto4 Hq4]; [rewrite S4, Rt4; assumption..|].
  assert (En4 : next_step (s_ob (w_sess w4)) = Some (StRel pid 0 (SWrite 0))) by (apply single_rel_step; assumption).
  destruct (rel_frame pid) as [rl [Erel Hvrl]].
  destruct (fresh_entry_sent (StRel pid 0 (SWrite 0)) w4 (rel_bytes pid 0) (lenN (rel_bytes pid 0)) 98 rl (u16_be pid ++ [0])
              (112 :: [2] ++ u16_be pid) (ob_ret (s_ob (w_sess w4))) [rel_entry pid SSent]
              Hc4 ltac:(apply quiet_PQ; rewrite ?S4, ?Rt4; assumption) Ec4 ltac:(rewrite S4, Rt4; exact Hka) ltac:(rewrite S4, Rt4; exact Hpt)
              (eq_trans Bb Hbr) (eq_trans Bt Htx) ltac:(rewrite Bl, N4; exact Hla) En4 eq_refl)
    as [w5 [E5 [En5 [_ [[Hc5 Ec5 El5 Er5 Ka5 Np5 Pt5 Br5 Tx5 Iq5 _] [W5 N5 La5 Rd5 Rt5 Bu5]]]]]];
    try assumption; try discriminate.
  - cbn [prepare_step]. rewrite S4, Rt4, Hmps. unfold rel_bytes. destruct (enc_ack_ok 6 pid 0) as [off [bs E]]. unfold encode_pubrel. rewrite E. reflexivity.
  - exact (owed_single_rel _ pid Ec4 El4 Er4).
  - rewrite Erel. apply broker_reply_pubrel. exact Hvrl.
  - intros len. exact (single_rel_step_result (w_sess w4) pid len (w_now w4) El4).
  - intros o Ho Hol Hor. rewrite Er4 in Hor. exact (single_rel_sent_no_step o pid Ho Hol Hor).
  - exists w5. split; [apply (Hpoll eq_refl), (drive_loop_last_step _ true w4 (StRel pid 0 (SWrite 0)) w5); try assumption; unfold NA; rewrite S4, Rd4; reflexivity|].
    rewrite Q4, N4 in Iq5. rewrite N4 in N5, La5, Rt5. rewrite S4 in Rd5, Rt5, Bu5. rewrite Rt4 in Rt5. rewrite Ob4 in Bu5. rewrite Er4 in Er5.
    split; [rewrite W5, W4; reflexivity|]. split; [exact Iq5|]. split; [exact Hc5|].
    unfold rd. rewrite Rd5, Rd4, Rt5, (note_outbound_activity_ka0 _ _ Hka).
    cbn [reader_reset rdata rplen rcap rt_with_timers rt_quota rt_maxquota rt_mps rt_maxqos]. repeat split; assumption.
Qed.

Theorem poll_pubrec_sends_pubrel : forall w pid e t,
  Hc w -> pid < 65536 -> 4 <= rcap (rd w) -> rdata (rd w) = [] -> rplen (rd w) = None ->
  ob_ctl (s_ob (w_sess w)) = [] -> ob_rel (s_ob (w_sess w)) = [] -> ob_ret (s_ob (w_sess w)) = [sent_entry e] -> re_pid e = pid ->
  rt_ka_ms (s_rt (w_sess w)) = 0 -> rt_next_ping (s_rt (w_sess w)) = None -> rt_ping_timeout (s_rt (w_sess w)) = None ->
  w_broker w = 1 -> w_txbuf w = [] -> w_inq w = [(t, 80 :: [2] ++ u16_be pid)] -> t <= w_now w -> w_last_arrival w <= w_now w ->
  exists w',
    op_poll FUEL w = (w', ODone None) /\ w_wire w' = w_wire w ++ rel_bytes pid 0 /\
    w_inq w' = [(w_now w, 112 :: [2] ++ u16_be pid)] /\
    Hc w' /\ rdata (rd w') = [] /\ rplen (rd w') = None /\ rcap (rd w') = rcap (rd w) /\ w_now w' = w_now w /\
    ob_ctl (s_ob (w_sess w')) = [] /\ ob_ret (s_ob (w_sess w')) = [] /\ ob_rel (s_ob (w_sess w')) = [rel_entry pid SSent] /\
    rt_ka_ms (s_rt (w_sess w')) = 0 /\ rt_next_ping (s_rt (w_sess w')) = None /\ rt_ping_timeout (s_rt (w_sess w')) = None /\
    w_broker w' = 1 /\ w_txbuf w' = [] /\ w_last_arrival w' = w_now w /\
    rt_quota (s_rt (w_sess w')) = rt_quota (s_rt (w_sess w)) /\ rt_maxquota (s_rt (w_sess w')) = rt_maxquota (s_rt (w_sess w)).
Proof.
  intros w pid e t Hcw Hp Hcap Hd Hpl Ec El Er Epid Hka Hnp Hpt Hbr Htx Hi Ht Hla.
  destruct (poll_pubrec_sends_pubrel_rt w pid e t Hcw Hp Hcap Hd Hpl Ec El Er Epid Hka Hnp Hpt Hbr Htx Hi Ht Hla)
    as [w' H].
  exists w'. tauto.
Qed.

Lemma poll_pubcomp_idle : forall k w pid t,
  Await [] [rel_entry pid SSent] [(t, 112 :: [2] ++ u16_be pid)] k w -> pid < 65536 -> 4 <= k -> t <= w_now w ->
  exists w',
    op_poll FUEL w = (w', ODone None) /\ w_wire w' = w_wire w /\ w_now w' = w_now w /\
    w_sess w' = set_rt (set_ob (set_reader (w_sess w) (reader_reset (rd w)))
                               {| ob_buf := ob_buf (s_ob (w_sess w)); ob_used := ob_used (s_ob (w_sess w)); ob_ctl := []; ob_ret := []; ob_rel := [] |})
                       (quota_inc (s_rt (w_sess w))) /\
    Await [] [] [] k w'.
Proof.
  intros k w pid t A Hp Hk Ht. pose proof (aw_conn A) as H. pose proof (cn_hc H) as [_ [_ [_ [Hmps [_ [HB _]]]]]].
  set (s3 := set_reader (w_sess w) (reader_reset (rd w))).
  destruct (poll_answer k w _ _ t 112 [2] (u16_be pid) _ _ false A Ht (single_rel_sent_no_step _ pid (cn_ctl H) (cn_rel H) (cn_ret H))
              ltac:(rewrite lenN_u16; reflexivity) ltac:(rewrite lenN_ack4; exact Hk) ltac:(rewrite lenN_ack4; discriminate)
              (from_buffer_ack4 112 RPubComp pid de_body_pubcomp Hp) (handle_pubcomp_single s3 pid (cn_rel H)) (cn_ctl H) eq_refl (cn_ret H) HB Hmps)
    as [w' [E [S' [W' [N' A']]]]].
  exists w'. split; [exact E|]. split; [exact W'|]. split; [exact N'|]. split; [|exact A'].
  rewrite S'. cbn [s3 set_reader s_ob s_rt]. rewrite (cn_ctl H), (cn_ret H). reflexivity.
Qed.

Lemma qos2_exchange : forall k w r s2 op ps,
  Await [] [] [] k w -> 4 <= k ->
  publish_middle (w_sess w) true r = (s2, MRetained op) ->
  effective_qos (w_sess w) (pr_qos r) = Q2 -> pr_props r = PSlice ps ->
  exists w1 w2 w3 bs cap off,
    op_publish FUEL r w = (w1, ODone (Some op)) /\
    enc_publish cap (pub_request r Q2 (op_pid op)) = SOk off bs /\ w_wire w1 = w_wire w ++ bs /\
    op_poll FUEL w1 = (w2, ODone None) /\ w_wire w2 = w_wire w1 ++ rel_bytes (op_pid op) 0 /\
    op_poll FUEL w2 = (w3, ODone None) /\ w_wire w3 = w_wire w2 /\ w_now w3 = w_now w /\
    s_rt (w_sess w3) = quota_inc (s_rt (w_sess w2)) /\
    rt_quota (s_rt (w_sess w2)) = rt_quota (s_rt (w_sess w1)) /\ rt_maxquota (s_rt (w_sess w2)) = rt_maxquota (s_rt (w_sess w1)) /\
    rt_maxqos (s_rt (w_sess w2)) = rt_maxqos (s_rt (w_sess w1)) /\
    s_rt (w_sess w1) = note_outbound_activity (s_rt s2) (w_now w) /\
    ob_cap (s_ob (w_sess w3)) = ob_cap (s_ob (w_sess w)) /\ Await [] [] [] k w3.
Proof.
  intros k w r s2 op ps [Hcn R] Hk Hm Hq2 Hps.
  destruct (publish_sent w r s2 op ps Q2 Hcn Hm Hq2 ltac:(discriminate) Hps)
    as [w1 [bs [cap [off [e [E1 [Hb [Hcn1 [[Hw1 N1 La1 _ Rt1 Bu1] [Hr1 [Epid [Hid Hlen2]]]]]]]]]]]].
  destruct Hcn1 as [Hc1 Ec1 El1 Er1 Ka1 Np1 Pt1 Br1 Tx1 Hi1 _]. rewrite <- Hr1 in R.
  destruct (poll_pubrec_sends_pubrel_rt w1 (op_pid op) e (w_now w) Hc1 Hid
              (N.le_trans _ _ _ Hk (rm_cap R)) (rm_data R) (rm_plen R)
              Ec1 El1 Er1 Epid Ka1 Np1 Pt1 Br1 Tx1 Hi1 ltac:(rewrite N1; apply N.le_refl) ltac:(rewrite La1, N1; apply N.le_refl))
    as [w2 [E2 [Hw2 [Hi2 [Hc2 [D2 [P2 [K2 [N2 [Ec2 [Er2 [El2 [Ka2 [Np2 [Pt2 [B2 [T2 [La2 [Qu2 [Mq2 [Bu2 [Mp2 Mqs2]]]]]]]]]]]]]]]]]]]]]].
  destruct (poll_pubcomp_idle k w2 (op_pid op) (w_now w1)) as [w3 [E3 [W3 [N3 [S3 A3]]]]];
    [|exact Hid|exact Hk|rewrite N2; apply N.le_refl|].
  { split; [apply conn_intro; try assumption; rewrite La2, N2; apply N.le_refl|]. split; [exact D2|exact P2|rewrite K2; exact (rm_cap R)]. }
  exists w1, w2, w3, bs, cap, off. repeat (split; [assumption|]). split; [rewrite N3, N2; exact N1|].
  rewrite S3. split; [reflexivity|]. repeat (split; [assumption|]).
  split; [unfold ob_cap; cbn [set_rt set_ob s_ob ob_buf]; rewrite Bu2, Bu1; exact Hlen2|exact A3].
Qed.

Theorem qos2_exchange_completes : forall w r s2 op ps,
  Hc w ->
  ob_ctl (s_ob (w_sess w)) = [] -> ob_rel (s_ob (w_sess w)) = [] -> ob_ret (s_ob (w_sess w)) = [] ->
  rt_ka_ms (s_rt (w_sess w)) = 0 -> rt_next_ping (s_rt (w_sess w)) = None -> rt_ping_timeout (s_rt (w_sess w)) = None ->
  w_broker w = 1 -> w_txbuf w = [] -> w_inq w = [] -> w_last_arrival w <= w_now w ->
  rdata (rd w) = [] -> rplen (rd w) = None -> 4 <= rcap (rd w) ->
  publish_middle (w_sess w) true r = (s2, MRetained op) ->
  effective_qos (w_sess w) (pr_qos r) = Q2 -> pr_props r = PSlice ps -> op_pid op < 65536 ->
  exists w1 w2 w3 bs cap off,
    op_publish FUEL r w = (w1, ODone (Some op)) /\
    enc_publish cap (pub_request r Q2 (op_pid op)) = SOk off bs /\ w_wire w1 = w_wire w ++ bs /\
    op_poll FUEL w1 = (w2, ODone None) /\ w_wire w2 = w_wire w1 ++ rel_bytes (op_pid op) 0 /\
    op_poll FUEL w2 = (w3, ODone None) /\ w_live w3 = true /\ w_inq w3 = [] /\
    ob_ctl (s_ob (w_sess w3)) = [] /\ ob_rel (s_ob (w_sess w3)) = [] /\ ob_ret (s_ob (w_sess w3)) = [] /\
    next_step (s_ob (w_sess w3)) = None /\
    rt_quota (s_rt (w_sess w3)) = N.min (N.min (rt_quota (s_rt (w_sess w1)) + 1) 65535) (rt_maxquota (s_rt (w_sess w1))).
Proof.
  intros w r s2 op ps Hcw Ec El Er Hka Hnp Hpt Hbr Htx Hiq Hla Hrd Hrp Hcap Hm Hq2 Hps Hid.
  destruct (qos2_exchange 4 w r s2 op ps (await_intro (conn_intro Hcw Ec El Er Hka Hnp Hpt Hbr Htx Hiq Hla) (room_intro _ Hrd Hrp Hcap))
              (N.le_refl 4) Hm Hq2 Hps)
    as [w1 [w2 [w3 [bs [cap [off [E1 [Hb [Hw1 [E2 [Hw2 [E3 [_ [_ [S3 [Qu2 [Mq2 [_ [_ [_ A3]]]]]]]]]]]]]]]]]]]].
  destruct (await_done _ _ A3) as [L3 [Hi3 [Ec3 [El3 [Er3 En3]]]]].
  exists w1, w2, w3, bs, cap, off. repeat (split; [assumption|]).
  rewrite S3. cbn [quota_inc rt_with_quota rt_quota]. rewrite Qu2, Mq2. reflexivity.
Qed.

Definition ex_pubq2 : pub_req := {| pr_topic := [117]; pr_props := PSlice []; pr_qos := Q2; pr_payload := [9]; pr_retain := false |}.
Definition ex_op2 : op := {| op_kind := 1; op_pid := 1; op_gen := 1 |}.
Definition ex_q2a : world := fst (op_publish FUEL ex_pubq2 ex_b1).
Definition ex_q2b : world := fst (op_poll FUEL ex_q2a).
Definition ex_q2c : world := fst (op_poll FUEL ex_q2b).

Example exchange2_example :
  publish_middle (w_sess ex_b1) true ex_pubq2 = (fst (publish_middle (w_sess ex_b1) true ex_pubq2), MRetained ex_op2) /\
  effective_qos (w_sess ex_b1) (pr_qos ex_pubq2) = Q2 /\
  snd (op_publish FUEL ex_pubq2 ex_b1) = ODone (Some ex_op2) /\
  w_wire ex_q2a = w_wire ex_b1 ++ [52; 7; 0; 1; 117; 0; 1; 0; 9] /\ w_inq ex_q2a = [(0, [80; 2; 0; 1])] /\
  snd (op_poll FUEL ex_q2a) = ODone None /\ w_wire ex_q2b = w_wire ex_q2a ++ [98; 3; 0; 1; 0] /\ w_inq ex_q2b = [(0, [112; 2; 0; 1])] /\
  snd (op_poll FUEL ex_q2b) = ODone None /\ ob_ret (s_ob (w_sess ex_q2c)) = [] /\ ob_rel (s_ob (w_sess ex_q2c)) = [] /\
  rt_quota (s_rt (w_sess ex_q2c)) = rt_quota (s_rt (w_sess ex_b1)).
Proof. vm_compute. repeat split. Qed.
