(* ConnectAny.v — C12, positive half, for EVERY conformant broker answer: whatever successful CONNACK the broker has
   sent (either session-present value, any property list the handshake accepts — Connack.connack_accepted_iff — in any
   order, with user properties, ...), connect() on a behaving transport writes the CONNECT, assembles the CONNACK
   through the packet reader (Behaving.fill_arrived), decodes and accepts it, from every world state in which the
   CONNECT fits behind the retained packets. *)
From Coq Require Import List NArith Lia.
From Minimq Require Import Bytes Varint Props Ser De Reader Arena Core Machine Run.
From Minimq Require Import VarintProofs CodecProofs Reconnect Io ConnectOk Connack.
Import ListNotations.
Open Scope N_scope.

Definition b2n' (b : bool) : N := if b then 1 else 0.

Definition connack_body (sp : bool) (szb block : bytes) : bytes := b2n' sp :: 0 :: szb ++ block.

Lemma connack_decodes_any : forall sp szb block rl,
  varint_write (lenN block) = Some szb -> varint_write (lenN (connack_body sp szb block)) = Some rl ->
  from_buffer (32 :: rl ++ connack_body sp szb block) = Some (RConnAck sp 0 block).
Proof.
  intros sp szb block rl Hs Hr. unfold from_buffer. rewrite (varint_roundtrip _ _ _ Hr).
  change (de_body 32 (connack_body sp szb block)) with
    (match connack_body sp szb block with
     | spb :: rc :: t => if 1 <? spb then None else
                         match de_props t with Some (ps, rest) => Some (RConnAck (N.eqb spb 1) (rc_norm rc) ps, rest) | None => None end
     | _ => None end).
  unfold connack_body.
  replace (szb ++ block) with (szb ++ block ++ []) by now rewrite app_nil_r.
  rewrite (de_props_block _ _ _ Hs). destruct sp; reflexivity.
Qed.

Theorem connect_succeeds_any : forall w off bs sp ps block szb rl t,
  encode_all ps = Some block -> forallb prop_wf ps = true -> forallb prop_canon ps = true ->
  forallb connack_prop_ok ps = true ->
  varint_write (lenN block) = Some szb -> varint_write (lenN (connack_body sp szb block)) = Some rl ->
  let pkt := 32 :: rl ++ connack_body sp szb block in
  lenN pkt <= rcap (s_reader (w_sess w)) -> lenN pkt <= 29000 ->
  w_script w = [] -> w_broker w = 0 -> w_inq w = [(t, pkt)] -> t <= w_now w ->
  let s2 := connect_scratch (w_sess w) in
  enc_connect (ob_cap (s_ob s2) - ob_used (s_ob s2)) (connect_request s2) = SOk off bs -> lenN bs <= BIG ->
  exists w', op_connect FUEL w = (w', ODone (if sp then 1 else 0)).
Proof.
  intros w off bs sp ps block szb rl t He Hw Hc Hok Hs Hr pkt Hcap H29 Hsc Hb Hi Ht s2 Henc Hl.
  assert (Hne : bs <> []) by (destruct (connect_layout _ _ _ _ Henc) as [rl0 [rest [E _]]]; rewrite E; discriminate).
  destruct (connect_on_healthy FUEL w off bs 32 rl (connack_body sp szb block) t Hsc Henc Hl Hr Hcap) as [w6 [E _]].
  - fold pkt. unfold BIG. lia.
  - exact (fuel_room _ H29).
  - fold s2. rewrite (io_write_nil bs (upd_sess w s2) Hsc Hne Hl). cbn [fst]. rewrite broker_feed_manual by exact Hb. exact Hi.
  - exact Ht.
  - rewrite E, (connack_decodes_any sp szb block rl Hs Hr).
    pose proof (connack_accepted_iff (w_sess w6) sp ps block (w_now w6) He Hw Hc) as Hacc. rewrite Hok in Hacc.
    exact (connack_outcome_ok _ _ _ Hacc).
Qed.

Theorem connect_action_succeeds_any : forall w sp ps block szb rl,
  encode_all ps = Some block -> forallb prop_wf ps = true -> forallb prop_canon ps = true ->
  forallb connack_prop_ok ps = true ->
  varint_write (lenN block) = Some szb -> varint_write (lenN (connack_body sp szb block)) = Some rl ->
  let pkt := 32 :: rl ++ connack_body sp szb block in
  lenN pkt <= rcap (s_reader (w_sess w)) -> lenN pkt <= 29000 ->
  w_script w = [] -> w_broker w = 0 ->
  let s2 := connect_scratch (w_sess w) in
  let free := ob_cap (s_ob s2) - ob_used (s_ob s2) in
  let cs := connect_chunks (connect_request s2) in
  chunks_ok cs = true -> chunks_len cs <= VARINT_MAX -> 5 + chunks_len cs <= free ->
  let w' := run_action (AConnect [(0, pkt)]) w in
  w_conn w' = true /\ w_live w' = true /\ w_event w' = (if sp then 1 else 0).
Proof.
  intros w sp ps block szb rl He Hw Hc Hok Hs Hr pkt Hcap H29 Hsc Hb s2 free cs Hcok Hv Hroom w'.
  destruct (connect_encodes_iff_room (w_sess w) Hcok Hv) as [Henc _]. destruct (Henc Hroom) as [off [bs Hb2]].
  set (w0 := upd_poison (upd_wire (upd_txbuf (upd_inq (upd_live w false false 0) [] (w_now w)) []) []) false).
  set (w1 := feed w0 0 pkt).
  assert (Hpk : pkt <> []) by (unfold pkt; discriminate).
  assert (E1 : w1 = upd_inq w0 [(w_now w, pkt)] (w_now w)).
  { unfold w1, feed. destruct pkt as [|x xs] eqn:Ep; [contradiction|].
    unfold w0. cbn [w_now w_last_arrival w_inq upd_poison upd_wire upd_txbuf upd_inq upd_live app].
    replace (N.max (w_now w + 0) (w_now w)) with (w_now w) by lia. reflexivity. }
  assert (F1 : w_sess w1 = w_sess w) by (rewrite E1; reflexivity).
  assert (F2 : w_script w1 = []) by (rewrite E1; exact Hsc).
  assert (F3 : w_broker w1 = 0) by (rewrite E1; exact Hb).
  assert (F4 : w_inq w1 = [(w_now w, pkt)]) by (rewrite E1; reflexivity).
  assert (F5 : w_now w1 = w_now w) by (rewrite E1; reflexivity).
  destruct (connect_succeeds_any w1 off bs sp ps block szb rl (w_now w) He Hw Hc Hok Hs Hr) as [w2 E2].
  { rewrite F1. exact Hcap. } { exact H29. } { exact F2. } { exact F3. } { exact F4. } { rewrite F5. apply N.le_refl. }
  { rewrite F1. exact Hb2. } { exact (connect_len_small _ _ _ _ Hb2). }
  unfold w', run_action. cbn [fold_left fst snd]. fold w0. fold w1. rewrite E2. cbn. repeat split.
Qed.

(* non-vacuity, on a resumed session *)
Definition ex_ck_props : list prop :=
  [mkprop KReceiveMaximum 3 [] []; mkprop KAssignedClientIdentifier 0 [105; 100] []; mkprop KServerKeepAlive 30 [] [];
   mkprop KUserProperty 0 [107] [118]].
Definition ex_ck_packet : bytes :=
  match encode_all ex_ck_props with
  | Some block => match varint_write (lenN block) with
                  | Some szb => match varint_write (lenN (connack_body true szb block)) with
                                | Some rl => 32 :: rl ++ connack_body true szb block
                                | None => [] end
                  | None => [] end
  | None => [] end.
Definition ex_any_world : world := upd_inq (upd_broker ex_broken 0) [(0, ex_ck_packet)] 0.

Example connect_any_example :
  forallb connack_prop_ok ex_ck_props = true /\ forallb prop_wf ex_ck_props = true /\ forallb prop_canon ex_ck_props = true /\
  lenN ex_ck_packet = 23 /\
  snd (op_connect FUEL ex_any_world) = ODone 1 /\
  rt_maxquota (s_rt (w_sess (fst (op_connect FUEL ex_any_world)))) = 3 /\
  s_client_id (w_sess (fst (op_connect FUEL ex_any_world))) = [105; 100].
Proof. vm_compute. repeat split; reflexivity. Qed.
