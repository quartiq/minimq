(* ArenaLemmas.v — byte-level facts about the transmit arena: slices, overwrite, the layout of the retained entries,
   compaction. *)
From Coq Require Import Lia.
From Minimq Require Import Util Bytes Arena.

Lemma lenN_sliceN : forall (l : bytes) off len, off + len <= lenN l -> lenN (sliceN off len l) = len.
Proof. intros. unfold sliceN. rewrite lenN_takeN, lenN_dropN. lia. Qed.

(* a byte around its bit 3 (the DUP flag of a PUBLISH header) *)
Lemma bit3_split : forall x, exists q r, r < 8 /\ x = 16 * q + (if N.testbit x 3 then 8 else 0) + r.
Proof.
  intros x. exists (x / 8 / 2), (x mod 8). rewrite N.testbit_eqb. change (2 ^ 3) with 8.
  pose proof (N.div_mod' x 8). pose proof (N.div_mod' (x / 8) 2).
  pose proof (N.mod_upper_bound x 8 ltac:(discriminate)). pose proof (N.mod_upper_bound (x / 8) 2 ltac:(discriminate)).
  pose proof (N.le_0_l ((x / 8) mod 2)). destruct (N.eqb_spec ((x / 8) mod 2) 1); lia.
Qed.

Lemma lenN_overwrite : forall l off d, off + lenN d <= lenN l -> lenN (overwrite l off d) = lenN l.
Proof. intros. unfold overwrite. rewrite !lenN_app, lenN_takeN, lenN_dropN. lia. Qed.

Lemma slice_overwrite_same : forall l off d,
  off + lenN d <= lenN l -> sliceN off (lenN d) (overwrite l off d) = d.
Proof.
  intros l off d H. unfold sliceN, overwrite.
  assert (Ht : lenN (takeN off l) = off) by (rewrite lenN_takeN; lia).
  rewrite dropN_app_ge by lia. rewrite Ht, N.sub_diag, dropN_0. apply takeN_app_exact.
Qed.

Lemma slice_overwrite_after : forall l off d o2 n,
  off + lenN d <= lenN l -> off + lenN d <= o2 ->
  sliceN o2 n (overwrite l off d) = sliceN o2 n l.
Proof.
  intros l off d o2 n H H2. unfold sliceN, overwrite. f_equal.
  assert (Ht : lenN (takeN off l) = off) by (rewrite lenN_takeN; lia).
  rewrite dropN_app_ge by lia. rewrite Ht.
  rewrite dropN_app_ge by lia. rewrite dropN_dropN. f_equal. lia.
Qed.

Lemma slice_overwrite_before : forall l off d o2 n,
  o2 + n <= off -> off <= lenN l ->
  sliceN o2 n (overwrite l off d) = sliceN o2 n l.
Proof.
  intros l off d o2 n H H2. unfold sliceN, overwrite.
  assert (Ht : lenN (takeN off l) = off) by (rewrite lenN_takeN; lia).
  rewrite dropN_app_le by lia.
  rewrite takeN_app_le by (rewrite lenN_dropN; lia).
  rewrite <- (takeN_dropN l off) at 2.
  rewrite dropN_app_le by lia.
  rewrite takeN_app_le by (rewrite lenN_dropN; lia). reflexivity.
Qed.

(* the layout of the retained entries: increasing, pairwise disjoint, inside [lo, used) *)
Fixpoint wf_layout (lo : N) (es : list rentry) (used : N) : Prop :=
  match es with
  | [] => lo <= used
  | e :: t => lo <= re_off e /\ 2 <= re_len e /\ wf_layout (re_off e + re_len e) t used
  end.

Lemma wf_layout_le : forall es lo used, wf_layout lo es used -> lo <= used.
Proof. induction es as [|e t IH]; intros lo used H; cbn [wf_layout] in H; [exact H|]. destruct H as [H1 [H2 H3]]. apply IH in H3. lia. Qed.

Lemma wf_layout_weaken : forall es lo lo' used, lo' <= lo -> wf_layout lo es used -> wf_layout lo' es used.
Proof. destruct es as [|e t]; intros lo lo' used H W; cbn [wf_layout] in *; [lia|]. destruct W as [W1 W]. split; [lia|exact W]. Qed.

Lemma wf_layout_used : forall es lo used used', used <= used' -> wf_layout lo es used -> wf_layout lo es used'.
Proof.
  induction es as [|e t IH]; intros lo used used' H W; cbn [wf_layout] in *; [lia|].
  destruct W as [W1 [W2 W3]]. repeat split; try assumption. eapply IH; eassumption.
Qed.

Lemma wf_layout_snoc : forall es lo used e, wf_layout lo es used -> used <= re_off e -> 2 <= re_len e ->
  wf_layout lo (es ++ [e]) (re_off e + re_len e).
Proof.
  induction es as [|x t IH]; intros lo used e W Ho Hl; cbn [app wf_layout] in *.
  - repeat split; lia.
  - destruct W as [W1 [W2 W3]]. repeat split; try assumption. eapply IH; eassumption.
Qed.

Definition entry_bytes (buf : bytes) (e : rentry) : bytes := sliceN (re_off e) (re_len e) buf.

Lemma map_eq3 : forall {A B C D E} (f f' : A -> B) (g g' : A -> C) (h h' : A -> D) (k k' : A -> E) l l',
  map f' l' = map f l -> map g' l' = map g l -> map h' l' = map h l ->
  (forall x' x, f' x' = f x -> g' x' = g x -> h' x' = h x -> k' x' = k x) -> map k' l' = map k l.
Proof.
  induction l as [|x t IH]; intros [|x' t'] Hf Hg Hh Hk; try discriminate; [reflexivity|].
  cbn [map] in *. injection Hf as Hf Hf'. injection Hg as Hg Hg'. injection Hh as Hh Hh'.
  f_equal; [now apply Hk | now apply IH].
Qed.

Lemma entry_bytes_ext : forall buf buf' es lo used, wf_layout lo es used ->
  (forall o n, lo <= o -> o + n <= used -> sliceN o n buf' = sliceN o n buf) ->
  map (entry_bytes buf') es = map (entry_bytes buf) es.
Proof.
  induction es as [|e t IH]; intros lo used W H; cbn [map]; [reflexivity|].
  cbn [wf_layout] in W. destruct W as [W1 [W2 W3]]. pose proof (wf_layout_le _ _ _ W3). f_equal.
  - apply H; lia.
  - apply (IH _ _ W3). intros o n Ho Hn. apply H; lia.
Qed.

Lemma compact_go_spec : forall es buf cursor used,
  wf_layout cursor es used -> used <= lenN buf ->
  let '(b', es', c') := compact_go buf cursor es in
  lenN b' = lenN buf /\
  map (entry_bytes b') es' = map (entry_bytes buf) es /\
  map re_pid es' = map re_pid es /\ map re_len es' = map re_len es /\ map re_st es' = map re_st es /\
  c' = cursor + sumN (map re_len es) /\ c' <= used /\
  wf_layout cursor es' c' /\
  (forall o n, o + n <= cursor -> sliceN o n b' = sliceN o n buf).
Proof.
  induction es as [|e t IH]; intros buf cursor used W Hu; cbn [compact_go].
  - cbn [wf_layout map sumN] in *.
    refine (conj _ (conj _ (conj _ (conj _ (conj _ (conj _ (conj _ (conj _ _)))))))); try reflexivity; lia.
  - cbn [wf_layout] in W. destruct W as [W1 [W2 W3]].
    pose proof (wf_layout_le _ _ _ W3) as Hle.
    set (buf' := if N.eqb (re_off e) cursor then buf
                 else overwrite buf cursor (sliceN (re_off e) (re_len e) buf)).
    assert (Hs : lenN (sliceN (re_off e) (re_len e) buf) = re_len e) by (apply lenN_sliceN; lia).
    assert (Hl : lenN buf' = lenN buf).
    { unfold buf'. destruct (N.eqb_spec (re_off e) cursor); [reflexivity|]. apply lenN_overwrite. lia. }
    assert (He : sliceN cursor (re_len e) buf' = sliceN (re_off e) (re_len e) buf).
    { unfold buf'. destruct (N.eqb_spec (re_off e) cursor) as [->|]; [reflexivity|].
      rewrite <- Hs at 1. apply slice_overwrite_same. lia. }
    assert (Ht : forall o n, re_off e + re_len e <= o -> sliceN o n buf' = sliceN o n buf).
    { intros o n Ho. unfold buf'. destruct (N.eqb_spec (re_off e) cursor); [reflexivity|].
      apply slice_overwrite_after; lia. }
    assert (Hb : forall o n, o + n <= cursor -> sliceN o n buf' = sliceN o n buf).
    { intros o n Ho. unfold buf'. destruct (N.eqb_spec (re_off e) cursor); [reflexivity|].
      apply slice_overwrite_before; lia. }
    assert (W3' : wf_layout (cursor + re_len e) t used) by (eapply wf_layout_weaken; [|exact W3]; lia).
    specialize (IH buf' (cursor + re_len e) used W3' ltac:(lia)).
    fold buf'. destruct (compact_go buf' (cursor + re_len e) t) as [[b2 t'] c2].
    destruct IH as [I1 [I2 [I3 [I4 [I5 [I6 [I7 [I8 I9]]]]]]]].
    cbn [map sumN]. refine (conj _ (conj _ (conj _ (conj _ (conj _ (conj _ (conj _ (conj _ _)))))))).
    + lia.
    + f_equal.
      * unfold entry_bytes at 1 2. cbn [re_off re_len]. rewrite I9 by lia. exact He.
      * rewrite I2. apply (entry_bytes_ext _ _ _ _ _ W3). intros o n Ho _. now apply Ht.
    + now rewrite I3.
    + now rewrite I4.
    + now rewrite I5.
    + lia.
    + lia.
    + cbn [wf_layout re_off re_len]. split; [lia|]. split; [lia|exact I8].
    + intros o n Ho. rewrite I9 by lia. apply Hb. lia.
Qed.
