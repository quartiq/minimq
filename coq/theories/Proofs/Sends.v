(* Sends.v — the user operations at the wire (C09 meets C15): a publish with QoS 1 or 2, a subscribe, an unsubscribe that
   returns its handle has put on the wire exactly what the queues owed before, followed by the encoding of the request —
   on any transport, however it cuts the writes, on which no write takes time and no PINGREQ is due (`PQ`) — and leaves
   nothing to write; a QoS 0 publish likewise, its packet written directly.  A drain that is dropped or cancelled on the way
   conserves `wire ++ owed`, so the retry completes the same byte stream. *)
From Minimq Require Import Bytes Props Ser Arena Core Machine Run Util Lts
  ArenaOps Inv WireInv Wire Terminate PingQuiet Engine Owed Effects Io.
Import ListNotations.
Local Open Scope N_scope.

Lemma owed_append : forall o o2 pid bs, abs o2 = abs o ++ [(pid, bs, SWrite 0)] -> ob_ctl o2 = ob_ctl o -> ob_rel o2 = ob_rel o ->
  owed o2 = owed o ++ bs.
Proof.
  intros o o2 pid bs Ha Hc Hl.
  assert (E : items o2 = items o ++ [(SWrite 0, bs)]) by (rewrite !items_abs, Ha, Hc, Hl, map_app, !app_assoc; reflexivity).
  rewrite !owed_items, E, !Gi_app. cbn [Gi map concat fst snd rest_part rest_fresh is_fresh N.eqb app]. now rewrite !app_nil_r, app_assoc.
Qed.

Definition pub_request (r : pub_req) (q : qos) (id : N) : publish_req :=
  {| pq_topic := pr_topic r; pq_pid := Some id; pq_props := pr_props r; pq_retain := pr_retain r;
     pq_qos := q; pq_dup := false; pq_payload := pr_payload r |}.

(* only `MO_ret` ends in `MRetained`: the packet was encoded behind the retained ones, so it is owed last *)
Lemma mid_out_owed : forall (E : N -> (N -> sres) -> Prop) D dec live s s' op,
  Inv s -> (forall id enc, E id enc -> forall cap off bs, enc cap = SOk off bs -> off + lenN bs <= cap /\ 2 <= lenN bs) ->
  mid_out E D dec live s s' (MRetained op) ->
  exists enc bs cap off, E (op_pid op) enc /\ enc cap = SOk off bs /\ owed (s_ob s') = owed (s_ob s) ++ bs /\ pframe s s'.
Proof.
  intros E D dec live s s' op I Hfit H. inversion H as [| | | | |p id enc o1 off len o2 k En He Ee _ Er _]; subst.
  destruct (encode_retain_spec _ _ _ _ _ _ _ (oi_arena _ (inv_ob _ I)) (Hfit _ _ He) Ee Er) as [bs [_ [Ab [_ [[cap [off' Hb]] [Hc [Hl _]]]]]]].
  assert (Ho : owed o2 = owed (s_ob s) ++ bs) by (eapply owed_append; eassumption).
  exists enc, bs, cap, off'. unfold pframe. destruct dec; repeat split; auto.
Qed.

Lemma enqueue_middle_retained : forall s kind enc s2 op,
  enqueue_middle s kind enc = (s2, MRetained op) ->
  exists s1 o1 off len o2,
    next_packet_id s = (s1, op_pid op) /\
    encode_at (s_ob s1) (fun cap => enc cap (op_pid op)) = (o1, EOk off len) /\
    retain_packet o1 (op_pid op) off len = Some o2 /\ s2 = set_ob (set_ob s1 o1) o2.
Proof.
  intros s kind enc s2 op H. apply enqueue_middle_out in H. inversion H as [| | | | |p id e o1 off len o2 k En -> Ee _ Er _]; subst.
  exists (set_pid s p), o1, off, len, o2. auto.
Qed.

Theorem publish_middle_owed : forall s live r s' op,
  Inv s -> publish_middle s live r = (s', MRetained op) ->
  exists bs cap off,
    enc_publish cap (pub_request r (effective_qos s (pr_qos r)) (op_pid op)) = SOk off bs /\
    owed (s_ob s') = owed (s_ob s) ++ bs /\
    pframe s s'.
Proof.
  intros s live r s' op I H. apply publish_middle_out in H.
  eapply mid_out_owed in H; [|exact I|intros id enc [_ ->] cap; apply enc_publish_fits].
  destruct H as [enc [bs [cap [off [[_ ->] Hb]]]]]. now exists bs, cap, off.
Qed.

Theorem enqueue_middle_owed : forall s kind enc s' op,
  Inv s -> (forall id cap off bs, enc cap id = SOk off bs -> off + lenN bs <= cap /\ 2 <= lenN bs) ->
  enqueue_middle s kind enc = (s', MRetained op) ->
  exists bs cap off, enc cap (op_pid op) = SOk off bs /\ owed (s_ob s') = owed (s_ob s) ++ bs /\
    pframe s s'.
Proof.
  intros s kind enc s' op I Hfit H. apply enqueue_middle_out in H.
  eapply mid_out_owed in H; [|exact I|intros id e -> cap; apply Hfit].
  destruct H as [e [bs [cap [off [-> Hb]]]]]. now exists bs, cap, off.
Qed.

Theorem flush_outbound_total : forall fuel w w' r,
  WInv (w_sess w) -> PQ w -> flush_outbound fuel w = (w', r) -> not_failed r ->
  total w' = total w /\ WInv (w_sess w') /\ PQ w' /\ w_now w' = w_now w.
Proof.
  intros fuel w w' r I Q H Hr. destruct (drain_master _ _ _ _ I H Hr) as [_ [I' [_ [_ Hpq]]]]. destruct (Hpq Q) as [A [B C]]. auto.
Qed.

(* a drain dropped (or stopped for any reason but an error) and run again to its end: nothing lost, nothing twice *)
Theorem flush_outbound_resumes : forall f1 f2 w w1 r w2,
  WInv (w_sess w) -> PQ w -> flush_outbound f1 w = (w1, r) -> not_failed r -> flush_outbound f2 w1 = (w2, ODone tt) ->
  w_wire w2 = w_wire w ++ owed (s_ob (w_sess w)) /\ next_step (s_ob (w_sess w2)) = None.
Proof.
  intros f1 f2 w w1 r w2 I Hq H1 Hr H2. destruct (flush_outbound_total _ _ _ _ I Hq H1 Hr) as [T [I1 [Q1 _]]].
  destruct (flush_outbound_wire _ _ _ I1 Q1 H2) as [Hw Hn]. split; [|exact Hn]. rewrite Hw. exact T.
Qed.

Lemma PQ_upd_sess : forall w s, (forall now, should_queue_pingreq s now = should_queue_pingreq (w_sess w) now) -> PQ w -> PQ (upd_sess w s).
Proof. intros w s H [Hq Hc]. split; [cbn [w_sess w_now upd_sess]; rewrite H; exact Hq|apply upd_sess_calm; exact Hc]. Qed.

(* publish, subscribe and unsubscribe after their guards: drain, a synchronous middle on the session, then finish_mid *)
Definition op_shape (fuel : nat) (mid : world -> session * midres) (w : world) : world * outcome (option op) :=
  bindu (flush_outbound fuel w) (fun w1 => let '(s2, m) := mid w1 in finish_mid fuel (upd_sess w1 s2) m).

Definition RetMid (mid : world -> session * midres) (E : world -> op -> bytes -> Prop) : Prop :=
  forall w1 s2 o, WInv (w_sess w1) -> mid w1 = (s2, MRetained o) ->
    WInv s2 /\ pframe (w_sess w1) s2 /\ exists bs, E w1 o bs /\ owed (s_ob s2) = owed (s_ob (w_sess w1)) ++ bs.

Lemma RetMid_publish : forall r, RetMid (fun w1 => publish_middle (w_sess w1) (w_live w1) r)
  (fun w1 o bs => exists cap off, enc_publish cap (pub_request r (effective_qos (w_sess w1) (pr_qos r)) (op_pid o)) = SOk off bs).
Proof.
  intros r w1 s2 o I Em. split.
  - replace s2 with (fst (publish_middle (w_sess w1) (w_live w1) r)) by now rewrite Em. exact (WInv_step _ _ _ (SS_publish _ _ _) I).
  - destruct (publish_middle_owed _ _ _ _ _ (proj1 I) Em) as [bs [cap [off [Hb [Ho Hk]]]]]. split; [exact Hk|]. exists bs. split; [now exists cap, off|exact Ho].
Qed.

Lemma RetMid_enqueue : forall kind enc, (forall id cap off bs, enc cap id = SOk off bs -> off + lenN bs <= cap /\ 2 <= lenN bs) ->
  (forall s, sstep s LOther (fst (enqueue_middle s kind enc))) ->
  RetMid (fun w1 => enqueue_middle (w_sess w1) kind enc) (fun _ o bs => exists cap off, enc cap (op_pid o) = SOk off bs).
Proof.
  intros kind enc Hfit Hss w1 s2 o I Em. split.
  - replace s2 with (fst (enqueue_middle (w_sess w1) kind enc)) by now rewrite Em. exact (WInv_step _ _ _ (Hss _) I).
  - destruct (enqueue_middle_owed _ _ _ _ _ (proj1 I) Hfit Em) as [bs [cap [off [Hb [Ho Hk]]]]]. split; [exact Hk|]. exists bs. split; [now exists cap, off|exact Ho].
Qed.

Lemma finish_mid_some : forall fuel w m w' op, finish_mid fuel w m = (w', ODone (Some op)) -> m = MRetained op.
Proof.
  intros fuel w m w' op H. destruct m as [e|o|bs0]; cbn [finish_mid] in H; [discriminate| |].
  - unfold bindu in H. destruct (flush_outbound fuel w) as [w3 o3]. destruct o3 as [[]|e| | |]; try discriminate. now inversion H.
  - destruct (write_all fuel bs0 w) as [w3 r3]. destruct r3 as [u|e| | |]; try discriminate.
    + destruct (io_flush w3) as [w4 fr]. destruct fr; discriminate.
    + destruct e; discriminate.
Qed.

Lemma op_subscribe_shape : forall fuel topics ps w w' r, op_subscribe fuel topics ps w = (w', r) -> not_failed r ->
  op_shape fuel (fun w1 => subscribe_middle (w_sess w1) topics ps) w = (w', r).
Proof.
  intros fuel topics ps w w' r H Hr. unfold op_subscribe in H. destruct (negb (w_live w)); [injection H as <- <-; elim Hr|].
  destruct topics; [injection H as <- <-; elim Hr|]. destruct (negb (props_valid_for _ _)); [injection H as <- <-; elim Hr|exact H].
Qed.

Lemma op_unsubscribe_shape : forall fuel topics ps w w' r, op_unsubscribe fuel topics ps w = (w', r) -> not_failed r ->
  op_shape fuel (fun w1 => unsubscribe_middle (w_sess w1) topics ps) w = (w', r).
Proof.
  intros fuel topics ps w w' r H Hr. unfold op_unsubscribe in H. destruct (negb (w_live w)); [injection H as <- <-; elim Hr|].
  destruct topics; [injection H as <- <-; elim Hr|]. destruct (negb (props_valid_for _ _)); [injection H as <- <-; elim Hr|exact H].
Qed.

Lemma RetMid_subscribe : forall topics ps, RetMid (fun w1 => subscribe_middle (w_sess w1) topics ps)
  (fun _ o bs => exists cap off, enc_subscribe cap {| sq_pid := op_pid o; sq_props := ps; sq_topics := topics |} = SOk off bs).
Proof.
  intros topics ps. exact (RetMid_enqueue 2 _ (fun id => enc_subscribe_fits {| sq_pid := id; sq_props := ps; sq_topics := topics |}) (fun s => SS_subscribe s topics ps)).
Qed.

Lemma RetMid_unsubscribe : forall topics ps, RetMid (fun w1 => unsubscribe_middle (w_sess w1) topics ps)
  (fun _ o bs => exists cap off, enc_unsubscribe cap {| uq_pid := op_pid o; uq_props := ps; uq_topics := topics |} = SOk off bs).
Proof.
  intros topics ps. exact (RetMid_enqueue 3 _ (fun id => enc_unsubscribe_fits {| uq_pid := id; uq_props := ps; uq_topics := topics |}) (fun s => SS_unsubscribe s topics ps)).
Qed.

(* between the two drains: the first has emptied the queues, so the packet the middle retains is all that is owed *)
Lemma retained_between : forall fuel mid E w w1 s2 o, RetMid mid E -> WInv (w_sess w) -> PQ w ->
  flush_outbound fuel w = (w1, ODone tt) -> mid w1 = (s2, MRetained o) ->
  WInv (w_sess (upd_sess w1 s2)) /\ PQ (upd_sess w1 s2) /\ exists bs, E w1 o bs /\ total (upd_sess w1 s2) = total w ++ bs.
Proof.
  intros fuel mid E w w1 s2 o HM I Hq E1 Em.
  destruct (flush_outbound_total _ _ _ _ I Hq E1 Logic.I) as [_ [I1 [Q1 _]]]. destruct (flush_outbound_wire _ _ _ I Hq E1) as [Hw1 Hn1].
  destruct (HM _ _ _ I1 Em) as [I2 [Hk [bs [Hb Ho]]]].
  split; [exact I2|]. split; [exact (PQ_upd_sess _ _ (pframe_sq _ _ Hk) Q1)|]. exists bs. split; [exact Hb|].
  unfold total. cbn [w_wire w_sess upd_sess]. now rewrite Ho, (owed_no_step _ Hn1), Hw1.
Qed.

Lemma op_shape_wire : forall fuel mid E w w' op, RetMid mid E -> WInv (w_sess w) -> PQ w ->
  op_shape fuel mid w = (w', ODone (Some op)) ->
  exists w1 bs, flush_outbound fuel w = (w1, ODone tt) /\ E w1 op bs /\
    w_wire w' = w_wire w ++ owed (s_ob (w_sess w)) ++ bs /\ next_step (s_ob (w_sess w')) = None.
Proof.
  intros fuel mid E w w' op HM I Hq H. unfold op_shape, bindu in H.
  destruct (flush_outbound fuel w) as [w1 o1] eqn:E1. destruct o1 as [[]|e| | |]; try discriminate.
  destruct (mid w1) as [s2 m] eqn:Em. pose proof (finish_mid_some _ _ _ _ _ H) as Hm. subst m.
  destruct (retained_between _ _ _ _ _ _ _ HM I Hq E1 Em) as [I2 [Q2 [bs [Hb T]]]].
  cbn [finish_mid] in H. unfold bindu in H. destruct (flush_outbound fuel (upd_sess w1 s2)) as [w3 o3] eqn:Ef.
  destruct o3 as [[]|e| | |]; try discriminate. injection H as <-.
  destruct (flush_outbound_wire _ _ _ I2 Q2 Ef) as [Hw Hn].
  exists w1, bs. split; [reflexivity|]. split; [exact Hb|]. split; [|exact Hn].
  fold (total (upd_sess w1 s2)) in Hw. rewrite Hw, T. symmetry. apply app_assoc.
Qed.

Theorem op_publish_wire : forall fuel r w w' op,
  WInv (w_sess w) -> PQ w -> op_publish fuel r w = (w', ODone (Some op)) ->
  exists w1 bs cap off,
    flush_outbound fuel w = (w1, ODone tt) /\
    enc_publish cap (pub_request r (effective_qos (w_sess w1) (pr_qos r)) (op_pid op)) = SOk off bs /\
    w_wire w' = w_wire w ++ owed (s_ob (w_sess w)) ++ bs /\ next_step (s_ob (w_sess w')) = None.
Proof.
  intros fuel r w w' op I Hq H. unfold op_publish in H. destruct (negb (w_live w)); [discriminate|].
  destruct (op_shape_wire fuel _ _ w w' op (RetMid_publish r) I Hq H) as [w1 [bs [E1 [[cap [off Hb]] Hw]]]].
  exists w1, bs, cap, off. auto.
Qed.

Theorem op_subscribe_wire : forall fuel topics ps w w' op,
  WInv (w_sess w) -> PQ w -> op_subscribe fuel topics ps w = (w', ODone (Some op)) ->
  exists bs cap off,
    enc_subscribe cap {| sq_pid := op_pid op; sq_props := ps; sq_topics := topics |} = SOk off bs /\
    w_wire w' = w_wire w ++ owed (s_ob (w_sess w)) ++ bs /\ next_step (s_ob (w_sess w')) = None.
Proof.
  intros fuel topics ps w w' op I Hq H. apply op_subscribe_shape in H; [|exact Logic.I].
  destruct (op_shape_wire fuel _ _ w w' op (RetMid_subscribe topics ps) I Hq H) as [w1 [bs [_ [[cap [off Hb]] Hw]]]]. exists bs, cap, off. auto.
Qed.

Theorem op_unsubscribe_wire : forall fuel topics ps w w' op,
  WInv (w_sess w) -> PQ w -> op_unsubscribe fuel topics ps w = (w', ODone (Some op)) ->
  exists bs cap off,
    enc_unsubscribe cap {| uq_pid := op_pid op; uq_props := ps; uq_topics := topics |} = SOk off bs /\
    w_wire w' = w_wire w ++ owed (s_ob (w_sess w)) ++ bs /\ next_step (s_ob (w_sess w')) = None.
Proof.
  intros fuel topics ps w w' op I Hq H. apply op_unsubscribe_shape in H; [|exact Logic.I].
  destruct (op_shape_wire fuel _ _ w w' op (RetMid_unsubscribe topics ps) I Hq H) as [w1 [bs [_ [[cap [off Hb]] Hw]]]]. exists bs, cap, off. auto.
Qed.

(* non-vacuity (the worlds of Replay.v): a retained QoS 1 publish
   issued on the resumed connection whose queues still owe the replay, on a transport taking three bytes at a time *)
From Minimq Require Import Replay.
Definition ex_pub3 : pub_req := {| pr_topic := [118]; pr_props := PSlice []; pr_qos := Q1; pr_payload := [7; 7]; pr_retain := true |}.
Example publish_wire_example :
  snd (op_publish FUEL ex_pub3 ex_frag) = ODone (Some {| op_kind := 0; op_pid := 3; op_gen := 1 |}) /\
  owed (s_ob (w_sess ex_frag)) = [64; 3; 0; 7; 0; 98; 3; 0; 2; 0; 58; 9; 0; 1; 116; 0; 1; 0; 1; 2; 3] /\
  w_wire (fst (op_publish FUEL ex_pub3 ex_frag)) =
    w_wire ex_frag ++ owed (s_ob (w_sess ex_frag)) ++ [51; 8; 0; 1; 118; 0; 3; 0; 7; 7].
Proof. vm_compute. repeat split. Qed.

Lemma step_cancel_conserves : forall st now w w',
  WInv (w_sess w) -> next_step (s_ob (w_sess w)) = Some st -> perform_outbound_step st now w = (w', OCancel) ->
  total w' = total w.
Proof. intros st now w w' I Hn H. exact (step_conserves st now w w' OCancel I Hn H Logic.I). Qed.

(* QoS 0: the packet is written directly, behind the drained queues *)
Definition pub_request0 (r : pub_req) : publish_req :=
  {| pq_topic := pr_topic r; pq_pid := None; pq_props := pr_props r; pq_retain := pr_retain r;
     pq_qos := Q0; pq_dup := false; pq_payload := pr_payload r |}.

Lemma publish_middle_q0 : forall s live r s' bs, publish_middle s live r = (s', MDirect bs) ->
  effective_qos s (pr_qos r) = Q0 /\ exists cap off, enc_publish cap (pub_request0 r) = SOk off bs.
Proof.
  intros s live r s' bs H. split.
  - (* at QoS 1 and 2 every way out of the middle is a refusal or a retained packet *)
    unfold publish_middle in H. destruct (negb (props_valid_for (pr_props r) CtxPublish)); [discriminate|].
    destruct (effective_qos s (pr_qos r)); [reflexivity| |].
    all: destruct (next_packet_id s) as [s1 id]; destruct (retained_full _); [discriminate|]; destruct (negb _); [discriminate|].
    all: destruct (encode_at _ _) as [o1 [off len|e]]; [|discriminate]; destruct (too_large _ _); [discriminate|].
    all: destruct (retain_packet _ _ _ _); discriminate.
  - apply publish_middle_out in H. inversion H as [| |bs0 _ _ [off Hb] _| | |]. eexists _, _. exact Hb.
Qed.

Theorem op_publish_q0_wire : forall fuel r w w',
  WInv (w_sess w) -> PQ w -> op_publish fuel r w = (w', ODone None) ->
  exists w1 bs cap off,
    flush_outbound fuel w = (w1, ODone tt) /\ effective_qos (w_sess w1) (pr_qos r) = Q0 /\
    enc_publish cap (pub_request0 r) = SOk off bs /\
    w_wire w' = w_wire w ++ owed (s_ob (w_sess w)) ++ bs.
Proof.
  intros fuel r w w' I Hq H. unfold op_publish in H. destruct (negb (w_live w)); [discriminate|]. unfold bindu in H.
  destruct (flush_outbound fuel w) as [w1 o1] eqn:E1. destruct o1 as [u|e| | |]; try discriminate. destruct u.
  destruct (flush_outbound_wire _ _ _ I Hq E1) as [Hw1 Hn1].
  destruct (publish_middle (w_sess w1) (w_live w1) r) as [s2 m] eqn:Em.
  destruct m as [e|o|bs]; [cbn [finish_mid] in H; discriminate| |].
  - cbn [finish_mid] in H. unfold bindu in H. destruct (flush_outbound fuel (upd_sess w1 s2)) as [w3 o3]. destruct o3; discriminate.
  - destruct (publish_middle_q0 _ _ _ _ _ Em) as [Hq0 [cap [off Hb]]].
    cbn [finish_mid] in H. destruct (write_all fuel bs (upd_sess w1 s2)) as [w3 r3] eqn:Ew.
    destruct r3 as [u|e| | |]; try discriminate; [|destruct e; discriminate]. destruct u.
    destruct (io_flush w3) as [w4 fr] eqn:Ef. destruct (io_flush_ghost _ _ _ Ef) as [_ [Hw4 _]]. destruct fr; try discriminate.
    injection H as <-.
    pose proof (write_all_wire fuel bs 0 (upd_sess w1 s2) w3 (ODone tt) (N.le_0_l _)) as Hwa. rewrite dropN_0 in Hwa.
    destruct (Hwa Ew) as [_ [_ [_ [k' [_ [K2 [K3 K4]]]]]]]. specialize (K4 eq_refl). subst k'.
    rewrite N.sub_0_r, takeN_all in K3 by apply N.le_refl.
    exists w1, bs, cap, off. split; [reflexivity|]. split; [exact Hq0|]. split; [exact Hb|].
    cbn [w_wire upd_sess]. rewrite Hw4, K3. cbn [w_wire upd_sess]. rewrite Hw1, <- app_assoc. reflexivity.
Qed.

(* The drain decides once, before its first step, whether a PINGREQ joins the queue; from then on PQ holds.  So for EVERY
   state: what the drain puts on the wire is what the queues owe after that decision. *)
Lemma pinged_pq : forall s now s1, maybe_queue_pingreq s now = (s1, None) -> should_queue_pingreq s1 now = false.
Proof.
  intros s now s1 H. unfold maybe_queue_pingreq in H. destruct (should_queue_pingreq s now) eqn:E; [|inversion H; subst; exact E].
  destruct (check_control_size _ _); [discriminate|]. unfold queue_control in H. destruct (_ <=? _); [discriminate|]. inversion H; subst s1.
  unfold should_queue_pingreq. cbn [s_rt s_ob set_ob]. unfold has_pending_pingreq. cbn [ob_ctl].
  rewrite has_pending_snoc_ping. cbn [negb]. now rewrite andb_false_r.
Qed.

Theorem flush_outbound_wire_any : forall fuel w w',
  WInv (w_sess w) -> Calm w -> flush_outbound fuel w = (w', ODone tt) ->
  w_wire w' = w_wire w ++ owed (s_ob (fst (maybe_queue_pingreq (w_sess w) (w_now w)))) /\ next_step (s_ob (w_sess w')) = None.
Proof.
  intros fuel w w' I Hcalm H. destruct fuel as [|f]; [discriminate|].
  destruct (maybe_queue_pingreq (w_sess w) (w_now w)) as [s1 e] eqn:Eq.
  assert (Ee : e = None) by (cbn [flush_outbound] in H; rewrite Eq in H; destruct e; [discriminate|reflexivity]). subst e.
  set (w1 := upd_sess w s1).
  assert (I1 : WInv (w_sess w1)).
  { cbn [w1 w_sess upd_sess]. replace s1 with (fst (maybe_queue_pingreq (w_sess w) (w_now w))) by now rewrite Eq.
    eapply WInv_step; [apply SS_ping|exact I]. }
  assert (Q1 : PQ w1) by (split; [cbn [w1 w_sess w_now upd_sess]; exact (pinged_pq _ _ _ Eq)|apply upd_sess_calm; exact Hcalm]).
  assert (H1 : flush_outbound (S f) w1 = (w', ODone tt)).
  { cbn [flush_outbound] in H |- *. rewrite Eq in H. rewrite (pq_no_ping w1 Q1), upd_sess_id. exact H. }
  cbn [fst]. exact (flush_outbound_wire _ _ _ I1 Q1 H1).
Qed.

(* C13, an operation whose future is dropped (`total w = wire ++ owed`).  A publish (QoS 1/2), subscribe or unsubscribe
   dropped at any await point keeps the invariants and the timers and leaves either no trace (dropped while the queues were
   still being drained) or the whole request enqueued (dropped after it was retained, whatever part of it was already
   written); draining on then completes exactly that byte stream (flush_outbound_wire). *)

Lemma op_shape_cancel : forall fuel mid E w w', RetMid mid E -> WInv (w_sess w) -> PQ w ->
  op_shape fuel mid w = (w', OCancel) ->
  (exists w1 s2 bs, flush_outbound fuel w = (w1, ODone tt) /\ mid w1 = (s2, MDirect bs)) \/
  (WInv (w_sess w') /\ PQ w' /\
   (total w' = total w \/
    exists w1 o bs, flush_outbound fuel w = (w1, ODone tt) /\ E w1 o bs /\ total w' = total w ++ bs)).
Proof.
  intros fuel mid E w w' HM I Hq H. unfold op_shape, bindu in H.
  destruct (flush_outbound fuel w) as [w1 o1] eqn:E1. destruct o1 as [[]|e| | |]; try discriminate.
  - destruct (mid w1) as [s2 m] eqn:Em. destruct m as [e|o|bs0]; [cbn [finish_mid] in H; discriminate| |left; now exists w1, s2, bs0].
    right. destruct (retained_between _ _ _ _ _ _ _ HM I Hq E1 Em) as [I2 [Q2 [bs [Hb T]]]].
    cbn [finish_mid] in H. unfold bindu in H. destruct (flush_outbound fuel (upd_sess w1 s2)) as [w3 o3] eqn:Ef.
    destruct o3 as [u|e| | |]; try discriminate. injection H as <-.
    destruct (flush_outbound_total _ _ _ _ I2 Q2 Ef Logic.I) as [T3 [I3 [Q3 _]]].
    split; [exact I3|]. split; [exact Q3|]. right. exists w1, o, bs. rewrite T3. auto.
  - right. inversion H; subst w'. destruct (flush_outbound_total _ _ _ _ I Hq E1 Logic.I) as [T [I1 [Q1 _]]]. auto.
Qed.

Theorem op_publish_cancel_safe : forall fuel r w w',
  WInv (w_sess w) -> PQ w -> op_publish fuel r w = (w', OCancel) ->
  (exists w1, flush_outbound fuel w = (w1, ODone tt) /\ effective_qos (w_sess w1) (pr_qos r) = Q0) \/
  (WInv (w_sess w') /\ PQ w' /\
   (total w' = total w \/
    exists w1 bs cap off id, flush_outbound fuel w = (w1, ODone tt) /\
      enc_publish cap (pub_request r (effective_qos (w_sess w1) (pr_qos r)) id) = SOk off bs /\ total w' = total w ++ bs)).
Proof.
  intros fuel r w w' I Hq H. unfold op_publish in H. destruct (negb (w_live w)); [discriminate|].
  destruct (op_shape_cancel fuel _ _ w w' (RetMid_publish r) I Hq H) as [[w1 [s2 [bs [E1 Em]]]]|[I' [Q' [T|[w1 [o [bs [E1 [[cap [off Hb]] T]]]]]]]]].
  - left. exists w1. split; [exact E1|]. exact (proj1 (publish_middle_q0 _ _ _ _ _ Em)).
  - right. auto.
  - right. split; [exact I'|]. split; [exact Q'|]. right. exists w1, bs, cap, off, (op_pid o). auto.
Qed.

Theorem op_subscribe_cancel_safe : forall fuel topics ps w w',
  WInv (w_sess w) -> PQ w -> op_subscribe fuel topics ps w = (w', OCancel) ->
  WInv (w_sess w') /\ PQ w' /\
  (total w' = total w \/
   exists bs cap off id, enc_subscribe cap {| sq_pid := id; sq_props := ps; sq_topics := topics |} = SOk off bs /\ total w' = total w ++ bs).
Proof.
  intros fuel topics ps w w' I Hq H. apply op_subscribe_shape in H; [|exact Logic.I].
  destruct (op_shape_cancel fuel _ _ w w' (RetMid_subscribe topics ps) I Hq H) as [[w1 [s2 [bs [_ Em]]]]|[I' [Q' [T|[w1 [o [bs [_ [[cap [off Hb]] T]]]]]]]]].
  - elim (enqueue_not_direct _ _ _ _ _ Em).
  - auto.
  - split; [exact I'|]. split; [exact Q'|]. right. exists bs, cap, off, (op_pid o). auto.
Qed.

Theorem op_unsubscribe_cancel_safe : forall fuel topics ps w w',
  WInv (w_sess w) -> PQ w -> op_unsubscribe fuel topics ps w = (w', OCancel) ->
  WInv (w_sess w') /\ PQ w' /\
  (total w' = total w \/
   exists bs cap off id, enc_unsubscribe cap {| uq_pid := id; uq_props := ps; uq_topics := topics |} = SOk off bs /\ total w' = total w ++ bs).
Proof.
  intros fuel topics ps w w' I Hq H. apply op_unsubscribe_shape in H; [|exact Logic.I].
  destruct (op_shape_cancel fuel _ _ w w' (RetMid_unsubscribe topics ps) I Hq H) as [[w1 [s2 [bs [_ Em]]]]|[I' [Q' [T|[w1 [o [bs [_ [[cap [off Hb]] T]]]]]]]]].
  - elim (enqueue_not_direct _ _ _ _ _ Em).
  - auto.
  - split; [exact I'|]. split; [exact Q'|]. right. exists bs, cap, off, (op_pid o). auto.
Qed.

(* computed: the publish of `publish_wire_example` with its future dropped inside the n-th transport call *)
Definition ex_drop (n : nat) : world := upd_script ex_conn (repeat (0, 3) n ++ [(3, 0)]).
Definition ex_dropped (n : nat) : world := fst (op_publish FUEL ex_pub3 (ex_drop n)).
Definition ex_resumed (n : nat) : world := fst (flush_outbound FUEL (upd_script (ex_dropped n) [])).
Example publish_cancel_example :
  (* dropped while the replay was still being drained: no trace of the request *)
  snd (op_publish FUEL ex_pub3 (ex_drop 9)) = OCancel /\ total (ex_dropped 9) = total ex_conn /\
  w_wire (ex_resumed 9) = w_wire ex_conn ++ owed (s_ob (w_sess ex_conn)) /\
  (* dropped after the request was retained and nine of its ten bytes written: the request survives, whole *)
  snd (op_publish FUEL ex_pub3 (ex_drop 14)) = OCancel /\
  total (ex_dropped 14) = total ex_conn ++ [51; 8; 0; 1; 118; 0; 3; 0; 7; 7] /\ owed (s_ob (w_sess (ex_dropped 14))) = [7] /\
  w_wire (ex_resumed 14) = w_wire ex_conn ++ owed (s_ob (w_sess ex_conn)) ++ [51; 8; 0; 1; 118; 0; 3; 0; 7; 7].
Proof. vm_compute. repeat split. Qed.
