(* Drain.v — the client drains before it reads: every inbound packet is handled in a state in which the outbound
   side has nothing left to write (next_step = None).  Ghost flag w_drained (Machine.v) records the conjunction over
   all process_received calls of an execution; it is true in every reachable world.  Consequences for C04: the
   acknowledgement of an inbound PUBLISH / PUBREL is appended to an EMPTY control queue (so the queue cannot be
   full), and acknowledgements reach the wire in arrival order because each is flushed before the next read. *)
From Coq Require Import List NArith Lia.
From Minimq Require Import Bytes Varint Ser De Reader Arena Core Machine Run.
From Minimq Require Import Util Io Blocks Refine Engine WireInv Wire Inbound Reconnect ConnectOk CodecProofs.
Import ListNotations.
Open Scope N_scope.

(* `run (fun _ => False)`: a run without the block that hands a packet to the session, the only one that touches the flag *)
Lemma run_dr : forall w w', run (fun _ => False) w w' -> w_drained w' = w_drained w.
Proof.
  induction 1; try reflexivity; try contradiction.
  - congruence.
  - exact (fr_drained _ _ (io_write_frame bs w)).
  - exact (fr_drained _ _ (io_flush_frame w)).
  - exact (fr_drained _ _ (io_read_frame win d w)).
  - unfold mark_partial. destruct (_ && _); reflexivity.
  - destruct (connack_process (w_sess w) p (w_now w)) as [s6 [resumed|e d]]; reflexivity.
Qed.

(* Rdy: what process_received must find for the flag to stay true *)
Definition D (w : world) : Prop := w_drained w = true.
Definition Rdy (w : world) : Prop :=
  packet_available (s_reader (w_sess w)) = true -> next_step (s_ob (w_sess w)) = None.

Lemma NA_Rdy : forall w, NA w -> Rdy w.
Proof. intros w H Ha. unfold NA in H. congruence. Qed.

Lemma process_dr : forall w, Rdy w -> D w -> D (fst (process_received w)).
Proof.
  intros w Hr Hd. unfold process_received.
  destruct (packet_available (s_reader (w_sess w))) eqn:Ea; cbn [negb]; [|exact Hd].
  destruct (take_packet (s_reader (w_sess w))) as [[[r' pl] [p|]]|]; try exact Hd.
  destruct (handle_packet (set_reader (w_sess w) r') p) as [s2 hr]. rewrite (Hr Ea). unfold D in Hd. rewrite Hd.
  destruct hr as [[|]|e]; [| |destruct e]; reflexivity.
Qed.

(* a packet found at the head of the loop meets Rdy; handling it empties the reader, and service keeps it empty *)
Theorem drive_loop_dr : forall fuel adv w, WInv (w_sess w) -> Rdy w -> D w -> D (fst (drive_loop fuel adv w)).
Proof.
  induction fuel as [|f IH]; intros adv w I Hr Hd; cbn [drive_loop]; [exact Hd|].
  pose proof (process_dr w Hr Hd) as D1. pose proof (WInv_wq _ _ (process_received_wq w) I) as I1.
  destruct (process_received w) as [w1 r1] eqn:Ep. cbn [fst] in D1, I1.
  destruct (process_received_pres w w1 r1 Ep) as [Pa [Pb _]].
  destruct r1 as [[p|]|e| | |]; try exact D1.
  destruct (packet_available (s_reader (w_sess w))) eqn:Ea; [apply IH; [exact I1|apply NA_Rdy, Pb; reflexivity|exact D1]|].
  specialize (Pa eq_refl). subst w1.
  pose proof (run_dr _ _ (service_run _ (w_now w) w)) as D2. pose proof (WInv_wq _ _ (service_wq (w_now w) w) I) as I2.
  destruct (service (w_now w) w) as [w2 r2] eqn:Es. cbn [fst] in D2, I2.
  destruct (service_pres (w_now w) w w2 r2 I Ea Es) as [_ [Q2 _]].
  assert (Dw2 : D w2) by (unfold D; now rewrite D2).
  destruct r2 as [b|e| | |]; try exact Dw2.
  destruct (next_step (s_ob (w_sess w2))); [|exact Dw2].
  apply IH; [exact I2|now apply NA_Rdy|exact Dw2].
Qed.

(* the fill that follows an idle drive_loop may complete a packet, but leaves the outbound side with nothing to write *)
Theorem wait_dr : forall fuel w w' r,
  WInv (w_sess w) -> (w_live w = true -> Rdy w) -> D w -> wait_for_progress fuel w = (w', r) ->
  D w' /\ (r = ODone PrAdvanced -> NA w').
Proof.
  induction fuel as [|f IH]; intros w w' r I Hr Hd H; cbn [wait_for_progress] in H; [inversion H; subst; split; [exact Hd|discriminate]|].
  destruct (drive_packet (S f) w) as [w1 r1] eqn:Ed. unfold drive_packet in Ed.
  destruct (w_live w) eqn:Hl; cbn [negb] in Ed.
  2:{ inversion Ed; subst. inversion H; subst. split; [exact Hd|discriminate]. }
  pose proof (drive_loop_dr (S f) false w I (Hr eq_refl) Hd) as D1.
  pose proof (WInv_wq _ _ (drive_loop_wq (S f) false w) I) as I1. rewrite Ed in D1, I1. cbn [fst] in D1, I1.
  destruct (drive_loop_pres (S f) false w w1 r1 I Ed) as [_ [_ [D3 _]]].
  destruct r1 as [pr|e| | |]; try (inversion H; subst; split; [exact D1|discriminate]).
  destruct pr as [| |q].
  2:{ inversion H; subst. split; [exact D1|]. intros _. exact (proj1 (D3 (or_intror eq_refl))). }
  2:{ inversion H; subst. split; [exact D1|discriminate]. }
  destruct (D3 (or_introl eq_refl)) as [_ Nn].
  destruct (w_live w1); cbn [negb] in H; [|inversion H; subst; split; [exact D1|discriminate]].
  set (dl := next_deadline (s_rt (w_sess w1))) in H.
  pose proof (run_dr _ _ (fill_run _ (S f) dl w1)) as F1. pose proof (WInv_wq _ _ (fill_wq (S f) dl w1) I1) as I2.
  destruct (fill_same (S f) dl w1) as [_ Fo].
  destruct (fill_packet_reader (S f) dl w1) as [w2 fr]. cbn [fst] in F1, I2, Fo.
  assert (D2 : D w2) by (unfold D; rewrite F1; exact D1).
  assert (R2 : w_live w2 = true -> Rdy w2) by (intros _ _; rewrite Fo; exact Nn).
  destruct fr as [|e| | |]; try (inversion H; subst; split; [exact D2|discriminate]); exact (IH _ _ _ I2 R2 D2 H).
Qed.

Theorem op_poll_dr : forall fuel w, WInv (w_sess w) -> NAl w -> D w -> D (fst (op_poll fuel w)).
Proof.
  intros fuel w I Hn Hd. unfold op_poll. destruct (wait_for_progress fuel w) as [w1 r1] eqn:Ew.
  destruct (wait_dr fuel w w1 r1 I (fun Hl => NA_Rdy w (Hn Hl)) Hd Ew) as [D1 _].
  destruct r1 as [[| |p]|e| | |]; exact D1.
Qed.

Theorem op_recv_dr : forall fuel w, WInv (w_sess w) -> NAl w -> D w -> D (fst (op_recv fuel w)).
Proof.
  induction fuel as [|f IH]; intros w I Hn Hd; cbn [op_recv]; [exact Hd|].
  pose proof (WInv_wq _ _ (wait_for_progress_wq (S f) w) I) as I1.
  destruct (wait_for_progress (S f) w) as [w1 r1] eqn:Ew. cbn [fst] in I1.
  destruct (wait_dr (S f) w w1 r1 I (fun Hl => NA_Rdy w (Hn Hl)) Hd Ew) as [D1 A1].
  destruct r1 as [[| |p]|e| | |]; try exact D1.
  apply IH; [exact I1|intros _; exact (A1 eq_refl)|exact D1].
Qed.

Theorem op_drive_dr : forall fuel w, WInv (w_sess w) -> NAl w -> D w -> D (fst (op_drive fuel w)).
Proof.
  intros fuel w I Hn Hd. unfold op_drive, drive_packet. destruct (w_live w) eqn:Hl; cbn [negb]; [|exact Hd].
  pose proof (drive_loop_dr fuel false w I (NA_Rdy w (Hn Hl)) Hd) as D1.
  destruct (drive_loop fuel false w) as [w1 [[| |p]|e| | |]]; exact D1.
Qed.

Lemma dr_record_op : forall w o, w_drained (record_op w o) = w_drained w.
Proof. intros. unfold record_op. destruct o as [[h|]| | | |]; reflexivity. Qed.

Theorem run_action_dr : forall a w, WInv (w_sess w) -> NAl w -> D w -> D (run_action a w).
Proof.
  intros a w I Hn Hd.
  assert (Same : forall w', w_drained w' = w_drained w -> D w') by (intros w' E; unfold D; now rewrite E).
  assert (Hl : forall x l, w_drained (upd_log x l) = w_drained x) by reflexivity.
  assert (Hid : forall A x (o : outcome A), w_drained x = w_drained x) by reflexivity.
  destruct a as [chunks|r|topics ps|topics ps|d| | | |delay bs|dt| | |mode|pid| ]; cbn [run_action];
    try (destruct (negb (w_conn w)); [exact Hd|]); unfold D.
  - match goal with |- context [op_connect FUEL ?x] => pose proof (run_dr _ _ (op_connect_run _ FUEL x)) as H; destruct (op_connect FUEL x) as [w2 r] end.
    cbn [fst] in H. rewrite (fr_drained _ _ (proj1 (fold_feed_frame _ _))) in H. destruct r; apply Same; exact H.
  - rewrite (logged_op w_drained Hl (op_publish FUEL r) _ record_op dr_record_op). apply Same, run_dr, op_publish_run.
  - rewrite (logged_op w_drained Hl (op_subscribe FUEL topics ps) _ record_op dr_record_op). apply Same, run_dr, op_subscribe_run.
  - rewrite (logged_op w_drained Hl (op_unsubscribe FUEL topics ps) _ record_op dr_record_op). apply Same, run_dr, op_unsubscribe_run.
  - rewrite (logged_op w_drained Hl (op_disconnect FUEL d) _ (fun x _ => x) (Hid _)). apply Same, run_dr, op_disconnect_run.
  - rewrite (logged_op w_drained Hl (op_drive FUEL) _ (fun x _ => x) (Hid _)). now apply op_drive_dr.
  - rewrite (logged_op w_drained Hl (op_poll FUEL) _ (fun x _ => x) (Hid _)). now apply op_poll_dr.
  - rewrite (logged_op w_drained Hl (op_recv FUEL) _ (fun x _ => x) (Hid _)). now apply op_recv_dr.
  - apply Same, (fr_drained _ _ (proj1 (feed_frame w delay bs))).
  - exact Hd.
  - exact Hd.
  - exact Hd.
  - exact Hd.
  - destruct (w_conn w); exact Hd.
  - exact Hd.
Qed.

Definition GoodD (w : world) : Prop := Good w /\ D w.

Theorem step_action_dr : forall w a, GoodD w -> GoodD (step_action w a).
Proof.
  intros w a [Gw Hd]. split; [now apply step_action_good|].
  unfold step_action. destruct (halted w) eqn:Eh; [exact Hd|].
  destruct Gw as [I [HW Hh]]. destruct Hh as [Hh|Hn]; [congruence|].
  match goal with |- context [run_action a ?x] => set (w0 := x) end.
  assert (D1 : D (run_action a w0)) by (apply run_action_dr; [exact I|exact Hn|exact Hd]).
  destruct (halted (run_action a w0)); exact D1.
Qed.

(* In every execution — every program, script of partial writes, faults and dropped futures, broker behaviour and
   number of reconnects — every inbound packet was handled with nothing left to write. *)
Theorem reachable_drained : forall c, w_drained (run_case c) = true.
Proof.
  intros c. unfold run_case.
  assert (G0 : GoodD (init_world c)) by (split; [apply Good_init|reflexivity]).
  revert G0. generalize (init_world c). induction (c_prog c) as [|a t IH]; intros w Gw; cbn [fold_left]; [exact (proj2 Gw)|].
  apply IH. now apply step_action_dr.
Qed.

(* `w_drained` stays set as long as `process_received` (Machine.v) meets `next_step = None` in the session it hands the
   packet to: that line of its definition is all that ties the flag to `Drained`.  Under `CtlShape` the control queue is then
   empty (`drained_ctl_nil`); a control packet has at most 5 bytes (`control_len`), whence the 5 of `AckFits`. *)
Definition Drained (s : session) : Prop := CtlShape (ob_ctl (s_ob s)) /\ next_step (s_ob s) = None.
Definition AckFits (s : session) : Prop := match rt_mps (s_rt s) with None => True | Some m => 5 <= m end.

Lemma drained_ctl_nil : forall o, CtlShape (ob_ctl o) -> next_step o = None -> ob_ctl o = [].
Proof.
  intros o Hc Hn. apply next_step_none in Hn. unfold items in Hn. destruct (ob_ctl o) as [|e t]; [reflexivity|]. exfalso.
  (* the head is quiet and stale, and by CtlShape not sent *)
  inversion Hn as [|? ? [Q S] _]. destruct Hc as [Hs _]. unfold quiet, stale in *. cbn [ctl_item fst] in *.
  destruct (ce_st e) as [k| |]; cbn [is_in_progress is_fresh] in *; [destruct (N.eqb k 0); discriminate|discriminate|congruence].
Qed.

(* type, remaining length, identifier (2), reason *)
Lemma control_len : forall a, exists off bs, encode_control_packet a = SOk off bs /\ lenN bs <= 5.
Proof.
  intros a. destruct (encode_control_ok a) as [off [bs E]]. exists off, bs. split; [exact E|exact (encode_control_len a off bs E)].
Qed.

Lemma control_fits : forall s a, AckFits s -> check_control_size (rt_mps (s_rt s)) a = None.
Proof.
  intros s a Hf. unfold check_control_size. destruct (control_len a) as [off [bs [E L]]]. rewrite E.
  unfold AckFits in Hf. unfold too_large. destruct (rt_mps (s_rt s)) as [m|]; [|reflexivity].
  destruct (N.ltb_spec m (lenN bs)); [lia|reflexivity].
Qed.

Theorem drained_not_refused : forall s a hr, Drained s -> AckFits s -> ~ refused s a hr.
Proof.
  intros s a hr [Hc Hn] Hf [[_ Hfull]|[e [_ Hsz]]].
  - rewrite (drained_ctl_nil _ Hc Hn) in Hfull. unfold MAX_PENDING_CONTROL in Hfull. cbn in Hfull. lia.
  - rewrite (control_fits s a Hf) in Hsz. discriminate.
Qed.

(* the C04 handling theorems of Inbound.v with their `refused` alternative excluded *)
Theorem qos1_acked_then_delivered_drained : forall s t id r d ps pl s' hr, Drained s -> AckFits s ->
  handle_packet s (RPublish t (Some id) Q1 r d ps pl) = (s', hr) ->
  let rc := if mem_id id (s_srv s) then 145 else 0 in
  hr = HOk true /\ ack_appended s s' (CPubAck id rc) /\ s_srv s' = s_srv s /\ ob_ctl (s_ob s') = [fresh_ctl (CPubAck id rc)].
Proof.
  intros s t id r d ps pl s' hr Hd Hf H rc.
  destruct (qos1_acked_then_delivered s t id r d ps pl s' hr H) as [[A [B C]]|[_ R]]; [|exfalso; exact (drained_not_refused _ _ _ Hd Hf R)].
  repeat split; try assumption; try apply B. destruct B as [B _]. rewrite B, (drained_ctl_nil _ (proj1 Hd) (proj2 Hd)). reflexivity.
Qed.

Theorem qos2_first_arrival_drained : forall s t id r d ps pl s' hr, Drained s -> AckFits s ->
  handle_packet s (RPublish t (Some id) Q2 r d ps pl) = (s', hr) ->
  mem_id id (s_srv s) = false -> glen (s_srv s) < MAX_INBOUND_QOS2 ->
  s_srv s' = s_srv s ++ [id] /\ hr = HOk true /\ ack_appended s s' (CPubRec id 0) /\ ob_ctl (s_ob s') = [fresh_ctl (CPubRec id 0)].
Proof.
  intros s t id r d ps pl s' hr Hd Hf H Hm Hl.
  destruct (qos2_first_arrival s t id r d ps pl s' hr H Hm Hl) as [[B [C A]]|[_ R]];
    [|exfalso; exact (drained_not_refused _ _ _ Hd Hf R)].
  repeat split; try assumption; try apply C. destruct C as [C _]. rewrite C, (drained_ctl_nil _ (proj1 Hd) (proj2 Hd)). reflexivity.
Qed.

Theorem qos2_duplicate_drained : forall s t id r d ps pl s' hr, Drained s -> AckFits s ->
  handle_packet s (RPublish t (Some id) Q2 r d ps pl) = (s', hr) -> mem_id id (s_srv s) = true ->
  s_srv s' = s_srv s /\ hr = HOk false /\ ack_appended s s' (CPubRec id 0).
Proof.
  intros s t id r d ps pl s' hr Hd Hf H Hm.
  destruct (qos2_duplicate s t id r d ps pl s' hr H Hm) as [A [_ [[B C]|[_ R]]]]; [|exfalso; exact (drained_not_refused _ _ _ Hd Hf R)].
  repeat split; try assumption; apply C.
Qed.

Theorem pubrel_pending_drained : forall s id rc s' hr, Drained s -> AckFits s ->
  handle_packet s (RPubRel id rc) = (s', hr) -> mem_id id (s_srv s) = true ->
  exists l, swap_remove_id id (s_srv s) = Some l /\ s_srv s' = l /\ hr = HOk false /\ ack_appended s s' (CPubComp id 0).
Proof.
  intros s id rc s' hr Hd Hf H Hm.
  destruct (pubrel_pending s id rc s' hr H Hm) as [l [A [B [[C E]|[_ R]]]]];
    [|exfalso; exact (drained_not_refused (set_srv s l) _ _ Hd Hf R)].   (* neither hypothesis looks at s_srv *)
  exists l. repeat split; try assumption; apply E.
Qed.

Theorem pubrel_unknown_drained : forall s id rc s' hr, Drained s -> AckFits s ->
  handle_packet s (RPubRel id rc) = (s', hr) -> mem_id id (s_srv s) = false ->
  s_srv s' = s_srv s /\ hr = HOk false /\ ack_appended s s' (CPubComp id 146).
Proof.
  intros s id rc s' hr Hd Hf H Hm.
  destruct (pubrel_unknown s id rc s' hr H Hm) as [A [[B C]|[_ R]]]; [|exfalso; exact (drained_not_refused _ _ _ Hd Hf R)].
  repeat split; try assumption; apply C.
Qed.

(* a reachable execution in which a QoS 2 PUBLISH was handled (identifier recorded, PUBREC written): flag true *)
Definition ex_q2 : world :=
  run_case {| c_cfg := ex_cfg;
              c_prog := [ASetBroker 2; AConnect []; AFeed 0 [52; 6; 0; 1; 116; 0; 7; 0]; APoll; APoll];
              c_script := [] |}.
(* an (unreachable) world in which a complete packet sits in the reader while a publish is half written: handling it
   would clear the flag — the theorem says no execution gets there *)
Definition ex_undrained : world :=
  let w := ex_broken in
  let w1 := upd_live w true true 0 in
  upd_sess w1 (set_reader (set_ob (w_sess w1) (arm_replay (s_ob (w_sess w1))))
                 {| rcap := 64; rdata := [208; 0]; rplen := Some 2 |}).

Example drained_examples :
  w_drained ex_q2 = true /\ s_srv (w_sess ex_q2) = [7] /\ w_live ex_q2 = true /\
  w_drained ex_undrained = true /\ w_drained (fst (process_received ex_undrained)) = false.
Proof. vm_compute. repeat split; reflexivity. Qed.
