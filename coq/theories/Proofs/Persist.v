(* Persist.v — an accepted packet is never lost: the bytes of a retained packet (modulo the DUP bit) stay in the
   retained list, step after step, until an acknowledgement naming its identifier is processed or a fresh broker
   session is established (C02, C03, C17). *)
From Coq Require Import Lia.
From Minimq Require Import Effects Bytes De Arena Core.
From Minimq Require Import ArenaLemmas ArenaOps Inv Lts Quota.

Definition clear_bit3 (x : N) : N := if N.testbit x 3 then x - 8 else x.
Definition undup (b : bytes) : bytes := match b with x :: t => clear_bit3 x :: t | [] => [] end.

Lemma clear_set_bit3 : forall x, clear_bit3 (set_bit3 x) = clear_bit3 x.
Proof.
  intros x. destruct (bit3_split x) as [q [r [Hr Hx]]]. destruct (bit3_split (set_bit3 x)) as [q' [r' [Hr' Hx']]].
  unfold clear_bit3, set_bit3 in *. destruct (N.testbit x 3) eqn:E; [now rewrite E|]. destruct (N.testbit (x + 8) 3); lia.
Qed.

Lemma undup_dup : forall b, undup (dup_bytes b) = undup b.
Proof. destruct b as [|x t]; cbn [dup_bytes undup]; [reflexivity|]. now rewrite clear_set_bit3. Qed.

Definition has_entry (o : outbound) (pid : N) (ub : bytes) : Prop :=
  exists bs st, In (pid, bs, st) (abs o) /\ undup bs = ub.

Definition a_key (a : aentry) : N * bytes := (fst (fst a), a_bytes a).

Lemma has_entry_keys : forall o o' pid ub, map a_key (abs o') = map a_key (abs o) -> has_entry o pid ub -> has_entry o' pid ub.
Proof.
  intros o o' pid ub Hk [bs [st [Hin Hu]]].
  assert (In (pid, bs) (map a_key (abs o))) by (apply in_map_iff; exists (pid, bs, st); split; [reflexivity|exact Hin]).
  rewrite <- Hk in H. apply in_map_iff in H. destruct H as [[[p b] st'] [Hk' Hin']].
  unfold a_key, a_bytes in Hk'. cbn [fst snd] in Hk'. injection Hk' as Hp Hb. rewrite Hp, Hb in Hin'.
  exists bs, st'. split; assumption.
Qed.

Lemma keys_states : forall o o',
  ob_buf o' = ob_buf o -> map re_pid (ob_ret o') = map re_pid (ob_ret o) ->
  map re_off (ob_ret o') = map re_off (ob_ret o) -> map re_len (ob_ret o') = map re_len (ob_ret o) ->
  map a_key (abs o') = map a_key (abs o).
Proof.
  intros o o' Hb Hp Ho Hl. unfold abs. rewrite !map_map, Hb. eapply map_eq3; [exact Hp | exact Ho | exact Hl |].
  intros x' x E1 E2 E3. unfold a_key, a_bytes, abs_entry, entry_bytes. cbn [fst snd]. congruence.
Qed.

Lemma keys_states_only : forall o o', states_only o o' -> map a_key (abs o') = map a_key (abs o).
Proof. intros o o' [Hb [_ [Hp [Ho [Hl _]]]]]. now apply keys_states. Qed.

Lemma has_entry_compact : forall o pid ub, arena_wf o -> has_entry o pid ub -> has_entry (compact o) pid ub.
Proof. intros o pid ub W H. destruct (compact_spec o W) as [_ [C2 _]]. unfold has_entry. now rewrite C2. Qed.

Lemma has_entry_dup : forall o pid ub, arena_wf o -> has_entry o pid ub -> has_entry (mark_retained_dup o) pid ub.
Proof.
  intros o pid ub W [bs [st [Hin Hu]]]. destruct (mark_retained_dup_spec o W) as [_ [M2 _]].
  exists (dup_bytes bs), st. rewrite M2. split; [|now rewrite undup_dup].
  apply in_map_iff. exists (pid, bs, st). split; [reflexivity|exact Hin].
Qed.

Lemma has_entry_arm_replay : forall o pid ub, arena_wf o -> has_entry o pid ub -> has_entry (arm_replay o) pid ub.
Proof.
  intros o pid ub W H. destruct (arm_replay_cases o) as [->|Hs]; [exact H|].
  eapply has_entry_keys; [apply keys_states_only, Hs | now apply has_entry_dup].
Qed.

Lemma abs_remove_other : forall pid pid' l l' (a : aentry), abs_remove pid' l = Some l' -> fst (fst a) = pid -> pid <> pid' -> In a l -> In a l'.
Proof.
  induction l as [|[[p b] st] t IH]; intros l' a H Ha Hne Hin; cbn [abs_remove] in H; [discriminate|].
  destruct (N.eqb_spec p pid').
  - inversion H; subst. destruct Hin as [<-|Hin]; [cbn [fst] in Hne; contradiction|exact Hin].
  - destruct (abs_remove pid' t) as [t'|] eqn:E; [|discriminate]. inversion H; subst.
    destruct Hin as [<-|Hin]; [now left|right; eapply IH; eauto].
Qed.

Lemma has_entry_ack_other : forall o pid pid' ub, arena_wf o -> pid <> pid' -> has_entry o pid ub -> has_entry (fst (ack_packet o pid')) pid ub.
Proof.
  intros o pid pid' ub W Hne [bs [st [Hin Hu]]]. destruct (ack_packet o pid') as [o' f] eqn:E. cbn [fst].
  destruct (ack_packet_spec o pid' o' f W E) as [_ [_ [_ [_ Hf]]]]. destruct f.
  - exists bs, st. split; [|exact Hu]. eapply abs_remove_other; [exact Hf|reflexivity|exact Hne|exact Hin].
  - destruct Hf as [-> _]. exists bs, st. split; assumption.
Qed.

Lemma has_entry_encode_at : forall o enc pid ub, OInv o ->
  fits enc ->
  has_entry o pid ub -> has_entry (fst (encode_at o enc)) pid ub.
Proof.
  intros o enc pid ub H Henc He. unfold has_entry.
  now rewrite (proj1 (proj2 (encode_at_spec _ _ _ _ (oi_arena _ H) Henc (surjective_pairing _)))).
Qed.

Lemma has_entry_retain : forall o enc o1 off len id o2 pid ub, OInv o ->
  fits enc ->
  encode_at o enc = (o1, EOk off len) -> retain_packet o1 id off len = Some o2 ->
  has_entry o pid ub -> has_entry o2 pid ub.
Proof.
  intros o enc o1 off len id o2 pid ub H Henc He Hr [bs [st [Hin Hu]]].
  destruct (encode_retain_spec o enc o1 off len id o2 (oi_arena _ H) Henc He Hr) as [nb [_ [Ab _]]].
  exists bs, st. rewrite Ab. split; [apply in_or_app; now left|exact Hu].
Qed.

(* the packets that can end the life of a retained entry *)
Definition names (p : rpacket) (pid : N) : Prop :=
  match p with
  | RPubAck i _ | RPubRec i _ | RSubAck i _ _ | RUnsubAck i _ _ => i = pid
  | _ => False
  end.

Lemma names_dec : forall p pid, names p pid \/ ~ names p pid.
Proof. intros p pid. destruct p; cbn [names]; try (right; tauto); destruct (N.eq_dec pid0 pid); tauto. Qed.

Lemma has_entry_hp : forall s p s' pid ub, hp_eff s p s' -> Inv s -> ~ names p pid ->
  has_entry (s_ob s) pid ub -> has_entry (s_ob s') pid ub.
Proof.
  intros s p s' pid ub H I Hn He. pose proof (oi_arena _ (inv_ob _ I)) as W.
  assert (A : forall i o, acks p i -> ack_packet (s_ob s) i = (o, true) -> has_entry o pid ub).
  { intros i o Hi E. assert (pid <> i) by (intros ->; exact (Hn Hi)).
    pose proof (has_entry_ack_other (s_ob s) pid i ub W H0 He) as X. now rewrite E in X. }
  destruct H as [|a o v Hq Hv|i v Hs|i o Hi Ha|i o Hi Ha|i o o2 Hi Ha Hr|i o Hc|]; cbn [set_srv set_ob set_rt s_ob];
    try exact He; eauto using pub_ack_acks.
  - now destruct (queue_control_inv _ _ _ Hq) as [-> _].
  - destruct (queue_release_inv _ _ _ _ Hr) as [-> _]. exact (A _ _ (pub_ack_acks _ _ Hi) Ha).
  - now destruct (ack_release_inv _ _ _ Hc) as [es [_ ->]].
Qed.

Lemma has_entry_mid : forall D dec live s s' m pid ub, mid_out (fun _ => req_enc dec) D dec live s s' m -> Inv s ->
  has_entry (s_ob s) pid ub -> has_entry (s_ob s') pid ub.
Proof.
  intros D dec live s s' m pid ub H I He. pose proof (inv_ob _ I) as HO.
  destruct H as [e _|e _ _|bs _ _ _ _|p id e Hn _|p id enc e Hn Hc _|p id enc o1 off len o2 k Hn Hc Ha _ Hr _]; cbn [set_ob set_pid set_rt s_ob]; try exact He.
  1, 2: apply has_entry_compact; [apply HO | exact He].
  - apply has_entry_encode_at; [exact HO | exact (req_enc_fits _ _ Hc) | exact He].
  - assert (has_entry o2 pid ub) by (eapply has_entry_retain; [exact HO | exact (req_enc_fits _ _ Hc) | eassumption..]). destruct dec; assumption.
Qed.

Theorem entry_persist : forall s l s' pid ub, sstep s l s' -> Inv s -> has_entry (s_ob s) pid ub ->
  has_entry (s_ob s') pid ub \/
  (exists p ok, l = LPacket ok /\ names p pid /\ s' = fst (handle_packet s p)) \/
  (exists u m, l = LConnack false u m).
Proof.
  intros s l s' pid ub H I He. pose proof (oi_arena _ (inv_ob _ I)) as W.
  destruct (sstep_seff _ _ _ H) as [o r rd Ho _ _|p|D dec live s' m M|sp a its now _|p _].
  - left. cbn [set_reader set_rt set_ob s_ob]. destruct Ho.
    + exact He.
    + now apply has_entry_arm_replay.
    + now apply has_entry_compact.
    + now destruct (queue_control_inv _ _ _ H0) as [-> _].
    + eapply has_entry_keys; [apply keys_states_only, set_written_states | exact He].
    + eapply has_entry_keys; [apply keys_states_only, complete_flush_states | exact He].
  - destruct (names_dec p pid) as [Hn|Hn].
    + right. left. eexists p, _. split; [reflexivity|]. split; [exact Hn|reflexivity].
    + left. eapply has_entry_hp; [eapply handle_packet_eff, surjective_pairing|exact I|exact Hn|exact He].
  - left. eapply has_entry_mid; eassumption.
  - destruct sp; [left; exact He|]. right. right. eexists _, _. reflexivity.
  - left. exact He.
Qed.
