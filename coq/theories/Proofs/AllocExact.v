(* AllocExact.v — the allocator of packet identifiers skips nothing but identifiers in use: which identifier a request
   gets is a function of the counter and the in-flight set alone. *)
From Coq Require Import List NArith Lia.
From Minimq Require Import Core Inv.
Import ListNotations.
Local Open Scope N_scope.

Lemma next_packet_id_exact : forall s s' id,
  OInv (s_ob s) -> id_ok (s_pid s) -> next_packet_id s = (s', id) ->
  exists k, (k < 17)%nat /\ id = cand k (s_pid s) /\ s_pid s' = pid_succ id /\
            ~ In id (ids (s_ob s)) /\
            forall j, (j < k)%nat -> In (cand j (s_pid s)) (ids (s_ob s)).
Proof.
  intros s s' id HO Hp H. destruct (next_packet_id_spec s s' id HO Hp H) as [k [K1 [K2 [-> [K4 K5]]]]].
  exists k. refine (conj K1 (conj K2 (conj eq_refl (conj _ _)))).
  - rewrite <- pid_in_use_In, K4. discriminate.
  - intros j Hj. apply pid_in_use_In, K5, Hj.
Qed.

Lemma next_packet_id_no_skip : forall s s' id,
  OInv (s_ob s) -> id_ok (s_pid s) -> next_packet_id s = (s', id) ->
  ~ In (s_pid s) (ids (s_ob s)) -> id = s_pid s.
Proof.
  intros s s' id HO Hp H Hfree. destruct (next_packet_id_exact s s' id HO Hp H) as [k [_ [K2 [_ [_ K5]]]]].
  destruct k as [|k]; [exact K2|]. exfalso. apply Hfree. apply (K5 O). lia.
Qed.
