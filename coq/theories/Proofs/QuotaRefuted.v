(* QuotaRefuted.v — C06, the case outside the environment assumption (known finding K06r): a publish that was
   accepted on an earlier connection but never reached the wire is kept in the arena; a resumed CONNACK with a
   Receive Maximum below the number of publishes the CLIENT holds makes the ghost flag false, and the engine then
   sends every retained packet regardless of the window. *)
From Coq Require Import List NArith.
From Minimq Require Import Arena Core Machine Run.
Import ListNotations.
Local Open Scope N_scope.

(* connect; QoS 1 publish (sent); QoS 1 publish whose write fails (retained, never sent); drop;
   resumed connect with Receive Maximum 1; poll *)
Definition k06r_tokens : list N :=
  [64; 256; 1; 116; 0; 0; 0; 0; 0; 6;
   0; 1; 0; 5; 32; 3; 0; 0; 0;
   1; 1; 97; 0; 0; 1; 1; 49; 0;
   1; 1; 97; 0; 0; 1; 1; 50; 0;
   10;
   0; 1; 0; 8; 32; 6; 1; 0; 3; 33; 0; 1;
   6;
   8; 0; 1000; 0; 1000; 0; 1000; 0; 1000; 0; 1000; 0; 1000; 0; 1000; 1; 0].

Definition k06r_world : option world :=
  match p_case k06r_tokens with Some (c, []) => Some (run_case c) | _ => None end.

(* what the theorem below reads off the final world; evaluating these four values, and not the world with its log,
   keeps the computed term small *)
Definition k06r_obs (w : world) : bool * N * N * bool :=
  (w_envok w, rt_maxquota (s_rt (w_sess w)), unresolved_publishes (s_ob (w_sess w)),
   forallb (fun e => sstate_eqb (re_st e) SSent) (ob_ret (s_ob (w_sess w)))).

Lemma k06r_obs_val : option_map k06r_obs k06r_world = Some (false, 1, 2, true).
Proof. vm_compute. reflexivity. Qed.

Theorem window_refuted_unsent_publish :
  exists w, k06r_world = Some w /\
    w_envok w = false /\ rt_maxquota (s_rt (w_sess w)) = 1 /\
    unresolved_publishes (s_ob (w_sess w)) = 2 /\
    Forall (fun e => re_st e = SSent) (ob_ret (s_ob (w_sess w))).
Proof.
  pose proof k06r_obs_val as H. destruct k06r_world as [w|]; [|discriminate].
  exists w. split; [reflexivity|]. cbn [option_map] in H. unfold k06r_obs in H. injection H as H1 H2 H3 H4.
  repeat split; try assumption. apply Forall_forall. intros e He.
  rewrite forallb_forall in H4. specialize (H4 e He). destruct (re_st e); try discriminate; reflexivity.
Qed.
