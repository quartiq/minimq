(* VarintProofs.v — MQTT variable byte integers: write/read round trip, canonicity, the reader's lax probe.
   Writer, reader and probe are all loops over base-128 digits, least significant first; each fact is proved for
   the loop started at an arbitrary digit position (shift `s`, accumulator `acc`) by induction on the number of
   digits left, and instantiated at four digits from position 0. *)
From Coq Require Import Lia ZifyN.
From Minimq Require Import Util Bytes Varint.

(* the shift list of `varint_read` *)
Fixpoint shifts (s : N) (n : nat) : list N :=
  match n with O => [] | S k => s :: shifts (s + 7) k end.

Lemma pow_shift : forall s, 2 ^ (s + 7) = 2 ^ s * 128.
Proof. intros. now rewrite N.pow_add_r. Qed.

Lemma digit_split : forall v p, v mod 128 * p + v / 128 * (p * 128) = v * p.
Proof. intros. rewrite (N.div_mod v 128) at 3 by discriminate. lia. Qed.

Lemma mod128_cont : forall b, (b mod 128 + 128) mod 128 = b mod 128 /\ (b mod 128 + 128 <? 128) = false.
Proof.
  intros. split; [|apply N.ltb_ge, N.le_add_l].
  rewrite <- (N.mul_1_l 128) at 2. rewrite N.mod_add by discriminate. apply N.mod_small, N.mod_upper_bound. discriminate.
Qed.

(* a continuation byte `b` in front of the digits of `u` *)
Lemma cont_digit : forall b u, 128 <= b < 256 ->
  (b mod 128 + u * 128) / 128 = u /\ (b mod 128 + u * 128) mod 128 + 128 = b.
Proof. intros. lia. Qed.

Lemma write_fuel_small : forall f v, v < 128 -> varint_write_fuel (S f) v = [v].
Proof. intros. cbn [varint_write_fuel]. rewrite N.div_small, N.mod_small by assumption. reflexivity. Qed.

Lemma write_fuel_big : forall f v, 128 <= v ->
  varint_write_fuel (S f) v = (v mod 128 + 128) :: varint_write_fuel f (v / 128) /\ v / 128 <> 0.
Proof.
  intros. cbn [varint_write_fuel]. destruct (N.eqb_spec (v / 128) 0) as [E|E]; [|now split].
  apply N.div_small_iff in E; [lia|discriminate].
Qed.

Lemma varint_write_some : forall v bs, varint_write v = Some bs <-> v < 128 ^ 4 /\ bs = varint_write_fuel 4 v.
Proof.
  intros. unfold varint_write, VARINT_MAX. change (128 ^ 4) with 268435456.
  destruct (N.ltb_spec 268435455 v); split; try discriminate; try lia.
  - intros [= <-]. split; [lia|reflexivity].
  - now intros [_ ->].
Qed.

Lemma varint_write_small : forall v, v < 128 -> varint_write v = Some [v].
Proof. intros. apply varint_write_some. split; [change (128 ^ 4) with 268435456; lia|now rewrite write_fuel_small]. Qed.

Lemma write_fuel_shape : forall f v, v < 128 ^ N.of_nat f -> (0 < f)%nat ->
  exists t b, varint_write_fuel f v = t ++ [b] /\ Forall (fun c => 128 <= c) t /\ b < 128 /\
              lenN (varint_write_fuel f v) <= N.of_nat f.
Proof.
  induction f as [|f IH]; intros v Hv Hf; [lia|].
  destruct (N.lt_ge_cases v 128) as [L|G].
  - rewrite write_fuel_small by exact L. exists [], v. repeat split; [constructor|exact L|cbn; lia].
  - destruct (write_fuel_big f v G) as [-> Hp].
    rewrite Nat2N.inj_succ, N.pow_succ_r' in Hv.
    assert (Hq : v / 128 < 128 ^ N.of_nat f) by (apply N.div_lt_upper_bound; lia).
    destruct f as [|f]; [cbn in Hq; lia|].
    destruct (IH (v / 128) Hq ltac:(lia)) as [t [b [-> [Ht [Hb Hl]]]]].
    exists ((v mod 128 + 128) :: t), b. rewrite lenN_cons. repeat split; [constructor; [apply N.le_add_l|exact Ht]|exact Hb|lia].
Qed.

(* the reader refuses a final zero byte everywhere but in first position; the writer never produces one there *)
Lemma read_write_fuel : forall f s acc v rest, v < 128 ^ N.of_nat f -> (0 < f)%nat -> (s <> 0 -> v <> 0) ->
  varint_read_go (shifts s f) acc (varint_write_fuel f v ++ rest) = VOk (acc + v * 2 ^ s) rest.
Proof.
  induction f as [|f IH]; intros s acc v rest Hv Hf Hz; [lia|]. cbn [shifts].
  destruct (N.lt_ge_cases v 128) as [L|G].
  - rewrite write_fuel_small by exact L. cbn [app varint_read_go].
    destruct (N.ltb_spec v 128); [|lia]. rewrite N.mod_small by exact L.
    destruct (N.eqb_spec s 0) as [->|Hs]; [reflexivity|].
    destruct (N.eqb_spec v 0); [now elim (Hz Hs)|reflexivity].
  - destruct (write_fuel_big f v G) as [-> Hp]. cbn [app varint_read_go].
    destruct (mod128_cont v) as [-> ->]. rewrite Nat2N.inj_succ, N.pow_succ_r' in Hv.
    rewrite IH; [|apply N.div_lt_upper_bound; [discriminate|exact Hv]|destruct f; [cbn in Hv|]; lia|intros _; exact Hp].
    rewrite pow_shift, <- N.add_assoc, digit_split. reflexivity.
Qed.

Lemma read_go_written : forall f s acc l v rest, Forall (fun b => b < 256) l ->
  varint_read_go (shifts s f) acc l = VOk v rest ->
  exists u, v = acc + u * 2 ^ s /\ l = varint_write_fuel f u ++ rest /\ u < 128 ^ N.of_nat f /\ (s <> 0 -> u <> 0).
Proof.
  induction f as [|f IH]; intros s acc l v rest Hb H; [discriminate|].
  cbn [shifts varint_read_go] in H. destruct l as [|b t]; [discriminate|]. inversion Hb as [|? ? Hb0 Hbt]; subst.
  rewrite Nat2N.inj_succ, N.pow_succ_r'.
  destruct (N.ltb_spec b 128) as [L|G].
  - rewrite N.mod_small in H by exact L. exists b. rewrite write_fuel_small by exact L.
    assert (128 ^ N.of_nat f <> 0) by (apply N.pow_nonzero; discriminate).
    destruct (N.eqb_spec s 0) as [->|Hs]; cbn [negb andb] in H.
    + injection H as <- <-. repeat split; [nia|congruence].
    + destruct (N.eqb_spec b 0); [discriminate|]. injection H as <- <-. repeat split; [nia|congruence].
  - destruct (IH _ _ _ _ _ Hbt H) as [u [-> [-> [Hu Hnz]]]]. specialize (Hnz ltac:(lia)).
    exists (b mod 128 + u * 128). destruct (write_fuel_big f (b mod 128 + u * 128) ltac:(lia)) as [-> _].
    destruct (cont_digit b u (conj G Hb0)) as [-> ->]. rewrite pow_shift. repeat split; [ring|lia|lia].
Qed.

Lemma write_fuel_len : forall k f v, (k < f)%nat -> (k = 0%nat \/ 128 ^ N.of_nat k <= v) -> v < 128 ^ N.of_nat (S k) ->
  lenN (varint_write_fuel f v) = N.of_nat (S k).
Proof.
  induction k as [|k IH]; intros f v Hf Hlo Hhi; (destruct f as [|f]; [lia|]).
  - now rewrite write_fuel_small.
  - destruct Hlo as [|Hlo]; [discriminate|]. rewrite Nat2N.inj_succ, N.pow_succ_r' in Hlo, Hhi.
    assert (0 < 128 ^ N.of_nat k) by (apply N.neq_0_lt_0, N.pow_nonzero; discriminate).
    destruct (write_fuel_big f v ltac:(lia)) as [-> _]. rewrite lenN_cons, (IH f); [lia|lia| |].
    + destruct k; [now left|right]. apply N.div_le_lower_bound; lia.
    + apply N.div_lt_upper_bound; lia.
Qed.

Lemma varint_write_len_eq : forall v bs, varint_write v = Some bs -> lenN bs = varint_len v.
Proof.
  intros v bs H. apply varint_write_some in H as [Hv ->]. unfold varint_len.
  destruct (N.leb_spec v 127); [apply (write_fuel_len 0); [lia|now left|change (v < 128); lia]|].
  destruct (N.leb_spec v 16383); [apply (write_fuel_len 1); [lia|right; change (128 <= v); lia|change (v < 16384); lia]|].
  destruct (N.leb_spec v 2097151);
    [apply (write_fuel_len 2); [lia|right; change (16384 <= v); lia|change (v < 2097152); lia]|].
  apply (write_fuel_len 3); [lia|right; change (2097152 <= v); lia|exact Hv].
Qed.

Theorem varint_roundtrip : forall v bs rest, varint_write v = Some bs -> varint_read (bs ++ rest) = VOk v rest.
Proof.
  intros v bs rest H. apply varint_write_some in H as [Hv ->].
  unfold varint_read. rewrite (read_write_fuel 4 0); [now rewrite N.mul_1_r|exact Hv|lia|congruence].
Qed.

(* canonicity: the reader accepts nothing non-canonical, longer than four bytes, or above 268435455 *)
Theorem varint_canonical : forall l v rest, Forall (fun b => b < 256) l -> varint_read l = VOk v rest ->
  exists bs, varint_write v = Some bs /\ l = bs ++ rest.
Proof.
  intros l v rest Hb H. destruct (read_go_written 4 0 0 l v rest Hb H) as [u [-> [-> [Hu _]]]].
  rewrite N.mul_1_r. exists (varint_write_fuel 4 u). split; [now apply varint_write_some|reflexivity].
Qed.

(* the packet reader's own length probe (laxer: shift-and-add over up to four bytes) agrees with the canonical reader *)
Lemma probe_go_agrees : forall n idx acc l v rest, varint_read_go (shifts (idx * 7) n) acc l = VOk v rest ->
  probe_go idx n acc (takeN (N.of_nat n) l) = Some (1 + (idx + (lenN l - lenN rest)) + v) /\ lenN rest < lenN l.
Proof.
  induction n as [|n IH]; intros idx acc l v rest H; [discriminate|].
  cbn [shifts varint_read_go] in H. destruct l as [|b t]; [discriminate|].
  rewrite Nat2N.inj_succ. cbn [takeN]. destruct (N.eqb_spec (N.succ (N.of_nat n)) 0); [lia|].
  rewrite N.pred_succ, lenN_cons. cbn [probe_go]. destruct (b <? 128).
  - destruct (_ && _); [discriminate|]. injection H as <- <-. split; [f_equal|]; lia.
  - replace (idx * 7 + 7) with ((idx + 1) * 7) in H by lia. destruct (IH _ _ _ _ _ H) as [-> Hl]. split; [f_equal|]; lia.
Qed.

Theorem probe_agrees : forall l v rest, varint_read l = VOk v rest ->
  probe_len (takeN 4 l) = Some (1 + (lenN l - lenN rest) + v).
Proof. intros l v rest H. exact (proj1 (probe_go_agrees 4 0 0 l v rest H)). Qed.
