(* Mixed.v — C16 / C04 for histories that interleave the application's acknowledged requests with inbound QoS 0 messages:
   from the idle state, every request completes and every message that arrives in between is handed to the application by
   the next poll(), in any order and for any length of history, and nothing but the requests' packets reaches the wire. *)
From Minimq Require Import Bytes Varint Props Ser De Reader Arena Core Machine Run Framing Exchange Exchange3 History.
Import ListNotations.
Local Open Scope N_scope.
Local Opaque u16_be.

Inductive event :=
| EvReq (q : request)
| EvMsg (pkt : bytes).

(* an inbound QoS 0 PUBLISH that fits the receive buffer *)
Definition msg_ok (w : world) (pkt : bytes) : Prop :=
  exists h rl body topic r dp props payload,
    varint_write (lenN body) = Some rl /\ pkt = h :: rl ++ body /\
    lenN pkt <= rcap (rd w) /\ lenN pkt <= 29000 /\
    from_buffer pkt = Some (RPublish topic None Q0 r dp props payload).

Definition event_ok (cap : N) (w : world) (e : event) : Prop :=
  match e with
  | EvReq q => request_ok cap w q
  | EvMsg pkt => msg_ok w pkt
  end.

(* a request is one complete exchange (History.exchange) after which its identifier is free again; a message arrives now
   (Run.feed with no delay) and the next poll() returns exactly its decoding *)
Inductive estep : world -> event -> world -> Prop :=
| es_req : forall w q op w2, exchange w q op w2 ->
    has_retained (s_ob (w_sess w2)) (op_pid op) = false -> has_pending_release (s_ob (w_sess w2)) (op_pid op) = false ->
    estep w (EvReq q) w2
| es_msg : forall w pkt w2 p, from_buffer pkt = Some p ->
    op_poll FUEL (feed w 0 pkt) = (w2, ODone (Some p)) -> w_wire w2 = w_wire w ->
    estep w (EvMsg pkt) w2.

Lemma estep_msg_inv : forall w pkt w2, estep w (EvMsg pkt) w2 ->
  exists p, from_buffer pkt = Some p /\ op_poll FUEL (feed w 0 pkt) = (w2, ODone (Some p)) /\ w_wire w2 = w_wire w.
Proof. intros w pkt w2 H. inversion H; subst. eexists. repeat split; eassumption. Qed.
Lemma estep_req_inv : forall w q w2, estep w (EvReq q) w2 ->
  exists op, exchange w q op w2 /\
    has_retained (s_ob (w_sess w2)) (op_pid op) = false /\ has_pending_release (s_ob (w_sess w2)) (op_pid op) = false.
Proof. intros w q w2 H. inversion H; subst. eexists. repeat split; eassumption. Qed.

Fixpoint wanted_events (cap : N) (es : list event) (w : world) : Prop :=
  match es with
  | [] => True
  | e :: t => event_ok cap w e /\ forall w2, estep w e w2 -> wanted_events cap t w2
  end.

Inductive mixed_history : world -> list event -> world -> Prop :=
| mh_nil : forall w, mixed_history w [] w
| mh_cons : forall w e es w2 w', estep w e w2 -> mixed_history w2 es w' -> mixed_history w (e :: es) w'.

Lemma feed_now : forall w pkt, pkt <> [] -> w_last_arrival w <= w_now w ->
  feed w 0 pkt = upd_inq w (w_inq w ++ [(w_now w, pkt)]) (w_now w).
Proof.
  intros w pkt Hne Hla. unfold feed. rewrite N.add_0_r, N.max_l by exact Hla. destruct pkt; [congruence|reflexivity].
Qed.

Theorem message_idle : forall w pkt,
  IdleQ w -> msg_ok w pkt ->
  exists w2, estep w (EvMsg pkt) w2 /\ IdleQ w2 /\ w_now w2 = w_now w /\
    ob_cap (s_ob (w_sess w2)) = ob_cap (s_ob (w_sess w)).
Proof.
  intros w pkt [Hi [Hq1 [Hq2 [Hq3 Hcap]]]] [h [rl [body [topic [r [dp [props [payload [Hrl [-> [Hfit [H29 Hdec]]]]]]]]]]]].
  destruct Hi as [Hcw [Ec [El [Er [Hka [Hnp [Hpt [Hbr [Htx [Hinq [Hla [Hrd [Hrp Hrc]]]]]]]]]]]]].
  pose proof (feed_now w (h :: rl ++ body) ltac:(discriminate) Hla) as Ef. rewrite Hinq in Ef. cbn [app] in Ef.
  (* the world the message arrives in differs from w in the inbound queue only *)
  destruct (inbound_qos0_idle (upd_inq w [(w_now w, h :: rl ++ body)] (w_now w)) h rl body (w_now w) topic r dp props payload
              Hcw Ec El Er Hka Hnp Hpt Hbr Htx (N.le_refl _) Hrd Hrp Hrc Hrl eq_refl (N.le_refl _) Hfit H29 Hdec)
    as [w2 [E2 [W2 [N2 [R2 [O2 I2]]]]]].
  exists w2. split; [eapply es_msg; [exact Hdec|rewrite Ef; exact E2|exact W2]|].
  split; [|split; [exact N2|rewrite O2; reflexivity]].
  split; [exact I2|]. rewrite R2, O2. repeat split; assumption.
Qed.

Theorem mixed_history_completes : forall es w,
  IdleQ w -> wanted_events (ob_cap (s_ob (w_sess w))) es w ->
  exists w', mixed_history w es w' /\ IdleQ w' /\ w_now w' = w_now w.
Proof.
  induction es as [|e es IH]; intros w HI HW.
  - exists w. split; [constructor|]. split; [exact HI|reflexivity].
  - cbn [wanted_events] in HW. destruct HW as [Hok Hnext]. destruct e as [q|pkt]; cbn [event_ok] in Hok.
    + destruct (exchange_idle w q HI Hok) as [op [w2 [Hex [Hr [Hp [Hn [Hc [HI2 _]]]]]]]].
      assert (Hst : estep w (EvReq q) w2) by (econstructor; eassumption).
      specialize (Hnext w2 Hst). rewrite <- Hc in Hnext.
      destruct (IH w2 HI2 Hnext) as [w' [Hh [HI' Hn']]].
      exists w'. split; [econstructor; eassumption|]. split; [exact HI'|]. rewrite Hn'. exact Hn.
    + destruct (message_idle w pkt HI Hok) as [w2 [Hst [HI2 [Hn Hc]]]].
      specialize (Hnext w2 Hst). rewrite <- Hc in Hnext.
      destruct (IH w2 HI2 Hnext) as [w' [Hh [HI' Hn']]].
      exists w'. split; [econstructor; eassumption|]. split; [exact HI'|]. rewrite Hn'. exact Hn.
Qed.

Definition ex_msg : bytes := [48; 5; 0; 1; 116; 0; 9].      (* PUBLISH QoS 0, topic "t", no properties, payload 09 *)

Example mixed_events_hyps_met :
  IdleQ ex_b1 /\ wanted_events (ob_cap (s_ob (w_sess ex_b1))) [EvMsg ex_msg; EvReq ex_req_sub] ex_b1.
Proof.
  destruct history_hyps_met as [HI _]. split; [exact HI|].
  assert (V1 : props_valid_for (PSlice []) CtxSubscribe = true) by (vm_compute; reflexivity).
  assert (F1 : forall id, exists off bs, enc_subscribe (ob_cap (s_ob (w_sess ex_b1))) {| sq_pid := id; sq_props := []; sq_topics := [(ex_filter, ex_so1)] |} = SOk off bs).
  { intros id. eexists. eexists. vm_compute. reflexivity. }
  assert (Rc : lenN ex_msg <= rcap (rd ex_b1)) by (vm_compute; discriminate).
  assert (Dc : from_buffer ex_msg = Some (RPublish [116] None Q0 false false [] [9])) by (vm_compute; reflexivity).
  cbn [wanted_events event_ok]. split.
  - exists 48, [5], [0; 1; 116; 0; 9], [116], false, false, [], [9].
    split; [vm_compute; reflexivity|]. split; [reflexivity|]. split; [exact Rc|]. split; [vm_compute; discriminate|exact Dc].
  - intros w2 _. split; [|intros; exact I].
    cbn [ex_req_sub request_ok]. split; [discriminate|]. split; [exact V1|exact F1].
Qed.
