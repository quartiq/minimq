(* KeepAliveReach.v — the K = 0 invariant holds in every reachable world of the machine *)
From Coq Require Import List NArith.
From Minimq Require Import Core Machine Run Reach KeepAlive.
Import ListNotations.
Local Open Scope N_scope.

Theorem reachable_KA : forall c, KA (w_sess (run_case c)).
Proof. intros c. apply (reachable_closed KA KA_step). apply KA_new. Qed.

Theorem reachable_ka0_no_ping : forall c now,
  rt_ka_ms (s_rt (w_sess (run_case c))) = 0 ->
  maybe_queue_pingreq (w_sess (run_case c)) now = (w_sess (run_case c), None) /\
  rt_next_ping (s_rt (w_sess (run_case c))) = None.
Proof.
  intros c now E. split; [apply ka0_no_ping; [apply reachable_KA|exact E]|]. now apply reachable_KA.
Qed.
