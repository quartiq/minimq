(* ConnectIdle.v — C12 / C16: where the histories of History.v start.  connect() of a client without keep-alive and with
   nothing in flight, on a behaving transport answered by a conformant broker, ends in the state `IdleQ` — for every
   configuration in which the CONNECT fits, for a fresh client as well as for one that resumes its session. *)
From Minimq Require Import Bytes Props Ser De Reader Arena Core Machine Run Refine
  WireInv Wire
  Reconnect ConnectOk Healthy Sends Framing Exchange Exchange3 CfgFrame History Io.
Import ListNotations.
Local Open Scope N_scope.
Local Opaque u16_be.

Lemma connack_idle_session : forall s sp now,
  ob_ctl (s_ob s) = [] -> ob_rel (s_ob s) = [] -> ob_ret (s_ob s) = [] ->
  (cf_keepalive_s (s_cfg s) mod 65536) * 1000 = 0 ->
  let s7 := fst (connack_process s (Some (RConnAck sp 0 [])) now) in
  ob_ctl (s_ob s7) = [] /\ ob_rel (s_ob s7) = [] /\ ob_ret (s_ob s7) = [] /\ ob_buf (s_ob s7) = ob_buf (s_ob s) /\
  s_reader s7 = s_reader s /\
  rt_ka_ms (s_rt s7) = 0 /\ rt_next_ping (s_rt s7) = None /\ rt_ping_timeout (s_rt s7) = None /\ rt_mps (s_rt s7) = None /\
  rt_quota (s_rt s7) = 8 /\ rt_maxquota (s_rt s7) = 8 /\ rt_maxqos (s_rt s7) = None.
Proof.
  intros s sp now Ec El Er Hka. unfold connack_process. change (rc_success 0) with true. cbn [negb].
  change (props_iter_encoded []) with (@nil (option prop)). cbn [connack_props]. cbv zeta. cbn [fst].
  cbn [s_ob s_reader s_rt ca_ka_ms ca_quota ca_maxquota ca_mps ca_maxqos].
  assert (Hob : s_ob (if sp then s else data_reset s) = (if sp then s_ob s else ob_clear (s_ob s))) by (destruct sp; reflexivity).
  assert (Hrd : s_reader (if sp then s else data_reset s) = s_reader s) by (destruct sp; reflexivity).
  assert (Hcf : s_cfg (if sp then s else data_reset s) = s_cfg s) by (destruct sp; reflexivity).
  rewrite Hob, Hrd.
  assert (Hun : unresolved_publishes (if sp then s_ob s else ob_clear (s_ob s)) = 0).
  { unfold unresolved_publishes. destruct sp; cbn [ob_clear ob_ret ob_rel ob_buf]; rewrite ?Er, ?El; reflexivity. }
  unfold note_outbound_activity, keepalive_send_interval. cbn [rt_ka_ms rt_with_timers rt_next_ping rt_ping_timeout rt_mps rt_quota rt_maxquota rt_maxqos].
  rewrite Hka, Hun. cbn [N.eqb].
  destruct sp; cbn [ob_clear ob_ctl ob_rel ob_ret ob_buf]; repeat split; assumption || reflexivity.
Qed.

Theorem connect_establishes_idle : forall w off bs,
  w_script w = [] -> w_broker w = 2 -> w_inq w = [] -> w_txbuf w = [] -> w_last_arrival w <= w_now w ->
  6 <= rcap (s_reader (w_sess w)) ->
  let s2 := connect_scratch (w_sess w) in
  enc_connect (ob_cap (s_ob s2) - ob_used (s_ob s2)) (connect_request s2) = SOk off bs -> lenN bs <= BIG ->
  WInv (w_sess w) ->
  ob_ctl (s_ob (w_sess w)) = [] -> ob_rel (s_ob (w_sess w)) = [] -> ob_ret (s_ob (w_sess w)) = [] ->
  (cf_keepalive_s (s_cfg (w_sess w)) mod 65536) * 1000 = 0 ->
  5 <= ob_cap (s_ob (w_sess w)) -> ob_cap (s_ob (w_sess w)) <= BIG ->
  exists w1 ev,
    op_connect FUEL w = (w1, ODone ev) /\ ev = (if s_sp (w_sess w) then 1 else 0) /\
    w_wire w1 = w_wire w ++ bs /\ w_now w1 = w_now w /\
    ob_cap (s_ob (w_sess w1)) = ob_cap (s_ob (w_sess w)) /\ s_cfg (w_sess w1) = s_cfg (w_sess w) /\
    rt_maxqos (s_rt (w_sess w1)) = None /\
    IdleQ (upd_broker (upd_live w1 true true ev) 1).
Proof.
  intros w off bs Hs Hb Hi Ht Hla Hrc s2 He Hl I0 Ec El Er Hka Hcap HB.
  pose proof (op_connect_wq FUEL w) as Hwq.
  destruct (connect_layout _ _ _ _ He) as [rl [rest [Ebs Hv]]].
  set (fl := connect_flags (connect_request s2)) in *.
  assert (Hne : bs <> []) by (rewrite Ebs; discriminate).
  destruct (io_write_connect (upd_sess w s2) fl rl rest Hs Hb Ht Hv) as [w3 [Ew [_ [_ [T3 [_ [_ [I3 L3]]]]]]]]; [rewrite <- Ebs; exact Hl|].
  rewrite <- Ebs in Ew. cbn [w_now w_inq w_last_arrival upd_sess] in I3, L3. rewrite Hi in I3. rewrite (N.max_l _ _ Hla) in I3, L3.
  assert (Hw3 : w_wire w3 = w_wire w ++ bs).
  { pose proof (io_write_nil bs (upd_sess w s2) Hs Hne Hl) as Ea. rewrite Ew in Ea. inversion Ea as [Ea'].
    match goal with |- w_wire (broker_feed ?x _) = _ => destruct (broker_feed_other x bs) as [_ [_ [W _]]]; rewrite W end. reflexivity. }
  destruct (connect_on_healthy FUEL w off bs 32 [3] [if N.testbit fl 1 then 0 else 1; 0; 0] (w_now w) Hs He Hl eq_refl)
    as [w6 [E [S6 [Q6 [C6 [N6 [F6 [W6 [T6 A6]]]]]]]]].
  - exact (N.le_trans 5 6 _ ltac:(discriminate) Hrc).
  - now apply N.leb_le.
  - apply fuel_room. discriminate.
  - fold s2. rewrite Ew. exact I3.
  - apply N.le_refl.
  - fold s2 in F6, W6, T6, A6. rewrite Ew in F6, W6, T6, A6. cbn [fst w_wire w_txbuf w_last_arrival upd_sess] in W6, T6, A6.
    (* the CONNACK meets the session of the idle client, preamble applied *)
    assert (Hsp : negb (N.testbit fl 1) = s_sp (w_sess w)).
    { unfold fl. rewrite connect_flags_clean. change (cq_clean (connect_request s2)) with (negb (s_sp (w_sess w))). apply Bool.negb_involutive. }
    assert (Hdec : from_buffer (32 :: [3] ++ [if N.testbit fl 1 then 0 else 1; 0; 0]) = Some (RConnAck (s_sp (w_sess w)) 0 []))
      by (rewrite <- Hsp; destruct (N.testbit fl 1); reflexivity).
    assert (Os2 : s_ob s2 = {| ob_buf := ob_buf (s_ob (w_sess w)); ob_used := 0; ob_ctl := []; ob_ret := []; ob_rel := [] |}).
    { unfold s2, connect_scratch, connect_preamble. cbn [set_ob s_ob]. unfold arm_replay, has_pending_state. rewrite Ec, Er, El. cbn [negb orb].
      unfold compact. rewrite Er. cbn [compact_go]. rewrite Ec, El. reflexivity. }
    assert (O6 : s_ob (w_sess w6) = s_ob s2) by (rewrite S6; reflexivity).
    destruct (connack_idle_session (w_sess w6) (s_sp (w_sess w)) (w_now w6)) as [Ec7 [El7 [Er7 [Bu7 [Rd7 [Ka7 [Np7 [Pt7 [Mp7 [Qu7 [Mq7 Mqs7]]]]]]]]]]];
      try (rewrite O6, Os2; reflexivity); [rewrite S6; exact Hka|].
    pose proof (plain_connack_accepted (w_sess w6) (s_sp (w_sess w)) (w_now w6)) as Hacc.
    rewrite E, Hdec in Hwq |- *. unfold connack_outcome in Hwq |- *.
    destruct (connack_process (w_sess w6) (Some (RConnAck (s_sp (w_sess w)) 0 [])) (w_now w6)) as [s7 cr].
    cbn [snd] in Hacc. subst cr. cbn [fst] in *.
    assert (Hbuf : ob_buf (s_ob s7) = ob_buf (s_ob (w_sess w))) by (rewrite Bu7, O6, Os2; reflexivity).
    assert (Hcap7 : ob_cap (s_ob s7) = ob_cap (s_ob (w_sess w))) by (unfold ob_cap; rewrite Hbuf; reflexivity).
    assert (Hrd7 : s_reader s7 = reader_reset (s_reader (w_sess w))) by (rewrite Rd7, S6; reflexivity).
    eexists. eexists. split; [reflexivity|]. split; [reflexivity|].
    cbn [w_wire w_now w_sess upd_envok upd_sess].
    split; [rewrite W6; exact Hw3|]. split; [exact N6|]. split; [exact Hcap7|]. split; [exact (wq_cfg _ _ Hwq)|]. split; [exact Mqs7|].
    split; [|cbn [upd_broker upd_live w_sess upd_envok upd_sess]; rewrite Qu7, Mq7, Hcap7; repeat split; try exact Hcap; discriminate].
    apply await_idle, await_quiet; unfold rd;
      cbn [upd_broker upd_live upd_envok upd_sess w_sess w_script w_live w_now w_broker w_txbuf w_inq w_last_arrival];
      rewrite ?Hrd7, ?Hbuf, ?T6, ?A6, ?L3, ?N6; try assumption; try reflexivity.
    exact (WInv_wq _ _ Hwq I0).
Qed.

(* with no Maximum QoS from the broker a request keeps the QoS it asks for: `request_ok` without the session *)
Definition request_plain (cap : N) (q : request) : Prop :=
  match q with
  | ReqPublish r =>
      props_valid_for (pr_props r) CtxPublish = true /\ (exists ps, pr_props r = PSlice ps) /\ pr_qos r <> Q0 /\
      (forall id, exists off bs, enc_publish cap (pub_request r (pr_qos r) id) = SOk off bs)
  | ReqSubscribe topics ps =>
      topics <> [] /\ props_valid_for (PSlice ps) CtxSubscribe = true /\
      (forall id, exists off bs, enc_subscribe cap {| sq_pid := id; sq_props := ps; sq_topics := topics |} = SOk off bs)
  | ReqUnsubscribe topics ps =>
      topics <> [] /\ props_valid_for (PSlice ps) CtxUnsubscribe = true /\
      (forall id, exists off bs, enc_unsubscribe cap {| uq_pid := id; uq_props := ps; uq_topics := topics |} = SOk off bs)
  end.

Lemma request_plain_ok : forall cap w q, rt_maxqos (s_rt (w_sess w)) = None -> request_plain cap q <-> request_ok cap w q.
Proof.
  intros cap w q Hm. destruct q as [r|t ps|t ps]; cbn [request_plain request_ok]; [|apply iff_refl|apply iff_refl].
  assert (E : forall x, effective_qos (w_sess w) x = x) by (intros x; unfold effective_qos; rewrite Hm; reflexivity).
  rewrite !E. apply iff_refl.
Qed.

(* connect(), first or resuming, then any list of acknowledged requests, each followed by its poll(): all complete *)
Theorem connect_then_history_completes : forall w off bs qs,
  w_script w = [] -> w_broker w = 2 -> w_inq w = [] -> w_txbuf w = [] -> w_last_arrival w <= w_now w ->
  6 <= rcap (s_reader (w_sess w)) ->
  let s2 := connect_scratch (w_sess w) in
  enc_connect (ob_cap (s_ob s2) - ob_used (s_ob s2)) (connect_request s2) = SOk off bs -> lenN bs <= BIG ->
  WInv (w_sess w) ->
  ob_ctl (s_ob (w_sess w)) = [] -> ob_rel (s_ob (w_sess w)) = [] -> ob_ret (s_ob (w_sess w)) = [] ->
  (cf_keepalive_s (s_cfg (w_sess w)) mod 65536) * 1000 = 0 ->
  5 <= ob_cap (s_ob (w_sess w)) -> ob_cap (s_ob (w_sess w)) <= BIG ->
  Forall (request_plain (ob_cap (s_ob (w_sess w)))) qs ->
  exists w1 ev w',
    op_connect FUEL w = (w1, ODone ev) /\ w_wire w1 = w_wire w ++ bs /\
    history (upd_broker (upd_live w1 true true ev) 1) qs w' /\ IdleQ w' /\ w_now w' = w_now w.
Proof.
  intros w off bs qs Hs Hb Hi Ht Hla Hrc s2 He Hl I0 Ec El Er Hka Hcap HB HF.
  destruct (connect_establishes_idle w off bs Hs Hb Hi Ht Hla Hrc He Hl I0 Ec El Er Hka Hcap HB)
    as [w1 [ev [E1 [_ [Hw1 [Hn1 [Hc1 [_ [Hm1 HI1]]]]]]]]].
  set (wc := upd_broker (upd_live w1 true true ev) 1) in *.
  assert (HF' : Forall (request_ok (ob_cap (s_ob (w_sess wc))) wc) qs).
  { change (ob_cap (s_ob (w_sess wc))) with (ob_cap (s_ob (w_sess w1))). rewrite Hc1.
    eapply Forall_impl; [|exact HF]. intros q. apply request_plain_ok. exact Hm1. }
  destruct (history_completes_static qs wc HI1 HF') as [w' [Hh [HI' Hn']]].
  exists w1, ev, w'. split; [exact E1|]. split; [exact Hw1|]. split; [exact Hh|]. split; [exact HI'|].
  rewrite Hn'. exact Hn1.
Qed.

(* the hypotheses are met by a client that has never connected *)
Definition ex_pre : world := run_case {| c_cfg := ex_cfgh; c_prog := [ASetBroker 2]; c_script := [] |}.
Definition ex_connect_bytes : bytes :=
  match enc_connect (ob_cap (s_ob (connect_scratch (w_sess ex_pre))) - ob_used (s_ob (connect_scratch (w_sess ex_pre))))
                    (connect_request (connect_scratch (w_sess ex_pre))) with SOk _ bs => bs | SErr _ => [] end.

Example connect_then_history_hyps_met :
  w_script ex_pre = [] /\ w_broker ex_pre = 2 /\ w_inq ex_pre = [] /\ w_txbuf ex_pre = [] /\ w_last_arrival ex_pre <= w_now ex_pre /\
  6 <= rcap (s_reader (w_sess ex_pre)) /\
  (exists off, enc_connect (ob_cap (s_ob (connect_scratch (w_sess ex_pre))) - ob_used (s_ob (connect_scratch (w_sess ex_pre))))
                           (connect_request (connect_scratch (w_sess ex_pre))) = SOk off ex_connect_bytes) /\
  lenN ex_connect_bytes <= BIG /\ WInv (w_sess ex_pre) /\
  ob_ctl (s_ob (w_sess ex_pre)) = [] /\ ob_rel (s_ob (w_sess ex_pre)) = [] /\ ob_ret (s_ob (w_sess ex_pre)) = [] /\
  (cf_keepalive_s (s_cfg (w_sess ex_pre)) mod 65536) * 1000 = 0 /\
  5 <= ob_cap (s_ob (w_sess ex_pre)) /\ ob_cap (s_ob (w_sess ex_pre)) <= BIG /\
  Forall (request_plain (ob_cap (s_ob (w_sess ex_pre)))) [ex_req_sub; ex_req_q2; ReqPublish ex_pub; ReqUnsubscribe [ex_filter] []].
Proof.
  assert (I0 : WInv (w_sess ex_pre)) by (unfold ex_pre; apply (proj1 (run_case_good _))).
  assert (M : rt_maxqos (s_rt (w_sess ex_pre)) = None) by (vm_compute; reflexivity).
  assert (Cp : ob_cap (s_ob (w_sess ex_pre)) = 128) by (vm_compute; reflexivity).
  split; [vm_compute; reflexivity|]. split; [vm_compute; reflexivity|]. split; [vm_compute; reflexivity|]. split; [vm_compute; reflexivity|].
  split; [vm_compute; intros X; discriminate X|]. split; [vm_compute; intros X; discriminate X|].
  split; [eexists; vm_compute; reflexivity|]. split; [vm_compute; intros X; discriminate X|]. split; [exact I0|].
  split; [vm_compute; reflexivity|]. split; [vm_compute; reflexivity|]. split; [vm_compute; reflexivity|]. split; [vm_compute; reflexivity|].
  split; [vm_compute; intros X; discriminate X|]. split; [vm_compute; intros X; discriminate X|].
  rewrite Cp. destruct (ex_requests_ok ex_pre M) as [R1 [R2 [R3 R4]]].
  pose proof (fun q => proj2 (request_plain_ok 128 ex_pre q M)) as P.
  exact (Forall_cons _ (P _ R1) (Forall_cons _ (P _ R2) (Forall_cons _ (P _ R3) (Forall_cons _ (P _ R4) (Forall_nil _))))).
Qed.
