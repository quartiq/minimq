(* Connack.v — exactly which successful CONNACKs the handshake accepts: every property list whose block decodes is
   accepted unless it carries Receive Maximum 0, a Maximum QoS above 2 (both protocol errors of the broker) — or an
   Assigned Client Identifier longer than the 64 bytes the session can store (valid MQTT 5: known finding K08a). *)
From Coq Require Import List NArith Lia.
From Minimq Require Import Bytes Props Ser De Core.
From Minimq Require Import CodecProofs.
Import ListNotations.
Open Scope N_scope.

Definition connack_prop_ok (p : prop) : bool :=
  match pk p with
  | KAssignedClientIdentifier => lenN (pdata p) <=? 64
  | KReceiveMaximum => negb (N.eqb (pnum p) 0)
  | KMaximumQoS => pnum p <=? 2
  | _ => true
  end.

Lemma qos_of_n_some : forall n, n <= 2 -> exists q, qos_of_n n = Some q.
Proof.
  intros n H. assert (E : n = 0 \/ n = 1 \/ n = 2) by lia. destruct E as [E|[E|E]]; subst; eexists; reflexivity.
Qed.
Lemma qos_of_n_none : forall n, 2 < n -> qos_of_n n = None.
Proof.
  intros n H. unfold qos_of_n. destruct (N.eqb_spec n 0); [lia|]. destruct (N.eqb_spec n 1); [lia|]. destruct (N.eqb_spec n 2); [lia|reflexivity].
Qed.

Lemma connack_props_ok : forall ps lq a,
  match connack_props (map Some ps) lq a with Some _ => true | None => false end = forallb connack_prop_ok ps.
Proof.
  induction ps as [|p t IH]; intros lq a; cbn [map connack_props forallb]; [reflexivity|].
  unfold connack_prop_ok at 1. destruct (pk p); try apply IH.
  - destruct (N.ltb_spec 64 (lenN (pdata p))) as [G|L]; [now rewrite (proj2 (N.leb_gt _ _) G)|].
    rewrite (proj2 (N.leb_le _ _) L). apply IH.
  - destruct (N.eqb (pnum p) 0); [reflexivity|apply IH].
  - destruct (N.leb_spec (pnum p) 2) as [L|L].
    + destruct (qos_of_n_some _ L) as [q ->]. apply IH.
    + now rewrite qos_of_n_none.
Qed.

Theorem connack_accepted_iff : forall s sp ps block now,
  encode_all ps = Some block -> forallb prop_wf ps = true -> forallb prop_canon ps = true ->
  snd (connack_process s (Some (RConnAck sp 0 block)) now) =
    if forallb connack_prop_ok ps then CAOk sp else CAErr EInvalidPacket true.
Proof.
  intros s sp ps block now He Hw Hc. unfold connack_process. change (rc_success 0) with true. cbn [negb].
  rewrite (props_iter_roundtrip ps block He Hw Hc).
  match goal with |- context [connack_props (map Some ps) ?lq ?a] =>
    rewrite <- (connack_props_ok ps lq a); destruct (connack_props (map Some ps) lq a) end; reflexivity.
Qed.

(* K08a: a valid CONNACK — reason 0, one property: Assigned Client Identifier of 65 letters — decodes, and is refused *)
Definition k08a_props : list prop := [mkprop KAssignedClientIdentifier 0 (repeat 97 65) []].
Definition k08a_packet : bytes :=
  match encode_all k08a_props with Some block => 32 :: 71 :: 0 :: 0 :: 68 :: block | None => [] end.

Theorem assigned_client_id_refuted :
  forallb prop_wf k08a_props = true /\ forallb prop_canon k08a_props = true /\
  lenN k08a_packet = 73 /\
  (exists block, from_buffer k08a_packet = Some (RConnAck false 0 block) /\ encode_all k08a_props = Some block) /\
  forall s now, snd (connack_process s (from_buffer k08a_packet) now) = CAErr EInvalidPacket true.
Proof.
  assert (E : exists block, from_buffer k08a_packet = Some (RConnAck false 0 block) /\ encode_all k08a_props = Some block)
    by (eexists; split; vm_compute; reflexivity).
  split; [reflexivity|]. split; [reflexivity|]. split; [reflexivity|]. split; [exact E|].
  intros s now. destruct E as [block [E1 E2]]. rewrite E1.
  now rewrite (connack_accepted_iff s false k08a_props block now E2 eq_refl eq_refl).
Qed.
