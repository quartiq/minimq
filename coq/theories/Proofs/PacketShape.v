(* PacketShape.v — the shape of handle_packet on an inbound QoS 2 PUBLISH (after fix 6ec1ca9: the identifier is
   recorded only once its PUBREC has been queued): the acknowledgement is queued or refused first, and only a queued
   PUBREC for a new identifier, with room in the table, records it. *)
From Coq Require Import List NArith.
From Minimq Require Import Bytes Ser De Arena Core.
Import ListNotations.
Open Scope N_scope.

Lemma handle_q2_shape : forall s t id r d ps pl,
  exists a dl, let q := queue_ctl_checked s a dl in
    handle_packet s (RPublish t (Some id) Q2 r d ps pl) = (fst q, snd q) \/
    (handle_packet s (RPublish t (Some id) Q2 r d ps pl) = (set_srv (fst q) (s_srv s ++ [id]), snd q) /\
     mem_id id (s_srv s) = false /\ glen (s_srv s) < MAX_INBOUND_QOS2 /\ a = CPubRec id 0 /\ exists b, snd q = HOk b).
Proof.
  intros s t id r d ps pl. cbn [handle_packet].
  match goal with |- context [queue_ctl_checked s ?a ?dl] => exists a, dl; destruct (queue_ctl_checked s a dl) as [s1 hr] eqn:E end.
  cbn [fst snd]. destruct hr as [b|e]; [|left; reflexivity].
  destruct (mem_id id (s_srv s)) eqn:Em; cbn [orb]; [left; reflexivity|].
  destruct (N.leb_spec MAX_INBOUND_QOS2 (glen (s_srv s))) as [L|L]; [left; reflexivity|].
  right. repeat split; try reflexivity; try assumption. now exists b.
Qed.
