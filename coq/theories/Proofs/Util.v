(* Util.v — general lemmas about the list vocabulary of Bytes.v (`lenN`, `takeN`, `dropN`, `sumN`) and about `find`,
   `existsb` and `Arena.update_first`. *)
From Coq Require Import Arith Lia.
From Minimq Require Import Bytes Arena.

(* The model computes with N throughout, and `cbn`/`simpl` would unfold these on any partly concrete argument into
   terms `lia` and `rewrite` no longer recognise; every file that requires this one inherits the setting. *)
Global Arguments N.add : simpl never.
Global Arguments N.sub : simpl never.
Global Arguments N.mul : simpl never.
Global Arguments N.div : simpl never.
Global Arguments N.modulo : simpl never.
Global Arguments N.eqb : simpl never.
Global Arguments N.ltb : simpl never.
Global Arguments N.leb : simpl never.
Global Arguments N.min : simpl never.
Global Arguments N.max : simpl never.

Lemma lenN_acc_spec : forall (l : bytes) a, lenN_acc l a = a + N.of_nat (length l).
Proof. induction l as [|x l IH]; intros a; cbn [lenN_acc length]; [lia|]. rewrite IH. lia. Qed.

Lemma lenN_length : forall l, lenN l = N.of_nat (length l).
Proof. intros. unfold lenN. rewrite lenN_acc_spec. lia. Qed.

Lemma lenN_nil : lenN [] = 0.
Proof. reflexivity. Qed.
Lemma lenN_cons : forall x l, lenN (x :: l) = 1 + lenN l.
Proof. intros. rewrite !lenN_length. cbn [length]. lia. Qed.
Lemma lenN_zero_nil : forall (l : bytes), lenN l = 0 -> l = [].
Proof. intros [|x t] H; [reflexivity|]. rewrite lenN_cons in H. lia. Qed.
Lemma lenN_app : forall a b, lenN (a ++ b) = lenN a + lenN b.
Proof. intros. rewrite !lenN_length, app_length. lia. Qed.

Lemma glen_length : forall {A} (l : list A), glen l = N.of_nat (length l).
Proof. induction l as [|x l IH]; cbn [glen length]; [reflexivity|]. rewrite IH. lia. Qed.
Lemma glen_app : forall {A} (a b : list A), glen (a ++ b) = glen a + glen b.
Proof. intros. rewrite !glen_length, app_length. lia. Qed.

Lemma takeN_firstn : forall {A} (l : list A) n, takeN n l = firstn (N.to_nat n) l.
Proof.
  induction l as [|x l IH]; intros n; cbn [takeN].
  - now rewrite firstn_nil.
  - destruct (N.eqb_spec n 0) as [->|Hn]; [reflexivity|].
    replace (N.to_nat n) with (S (N.to_nat (N.pred n))) by lia. cbn [firstn]. now rewrite IH.
Qed.
Lemma dropN_skipn : forall {A} (l : list A) n, dropN n l = skipn (N.to_nat n) l.
Proof.
  induction l as [|x l IH]; intros n; cbn [dropN].
  - now rewrite skipn_nil.
  - destruct (N.eqb_spec n 0) as [->|Hn]; [reflexivity|].
    replace (N.to_nat n) with (S (N.to_nat (N.pred n))) by lia. cbn [skipn]. now rewrite IH.
Qed.

Lemma takeN_dropN : forall {A} (l : list A) n, takeN n l ++ dropN n l = l.
Proof. intros. rewrite takeN_firstn, dropN_skipn. apply firstn_skipn. Qed.

Lemma lenN_takeN : forall (l : bytes) n, lenN (takeN n l) = N.min n (lenN l).
Proof. intros. rewrite takeN_firstn, !lenN_length, firstn_length. lia. Qed.
Lemma lenN_dropN : forall (l : bytes) n, lenN (dropN n l) = lenN l - n.
Proof. intros. rewrite dropN_skipn, !lenN_length, skipn_length. lia. Qed.

Lemma takeN_0 : forall {A} (l : list A), takeN 0 l = [].
Proof. destruct l; reflexivity. Qed.
Lemma dropN_0 : forall {A} (l : list A), dropN 0 l = l.
Proof. destruct l; reflexivity. Qed.

Lemma takeN_all : forall (l : bytes) n, lenN l <= n -> takeN n l = l.
Proof. intros. rewrite takeN_firstn. apply firstn_all2. rewrite lenN_length in H. lia. Qed.
Lemma dropN_all : forall (l : bytes) n, lenN l <= n -> dropN n l = [].
Proof. intros. rewrite dropN_skipn. apply skipn_all2. rewrite lenN_length in H. lia. Qed.

Lemma takeN_app_exact : forall (a b : bytes), takeN (lenN a) (a ++ b) = a.
Proof.
  intros. rewrite takeN_firstn, lenN_length, Nat2N.id.
  rewrite firstn_app, Nat.sub_diag, firstn_O, app_nil_r. apply firstn_all.
Qed.
Lemma dropN_app_exact : forall (a b : bytes), dropN (lenN a) (a ++ b) = b.
Proof.
  intros. rewrite dropN_skipn, lenN_length, Nat2N.id.
  rewrite skipn_app, Nat.sub_diag, skipn_all. reflexivity.
Qed.

Lemma takeN_app_le : forall (a b : bytes) n, n <= lenN a -> takeN n (a ++ b) = takeN n a.
Proof.
  intros. rewrite !takeN_firstn. rewrite lenN_length in H. rewrite firstn_app.
  replace (N.to_nat n - length a)%nat with 0%nat by lia. now rewrite firstn_O, app_nil_r.
Qed.
Lemma dropN_app_ge : forall (a b : bytes) n, lenN a <= n -> dropN n (a ++ b) = dropN (n - lenN a) b.
Proof.
  intros. rewrite !dropN_skipn. rewrite lenN_length in *. rewrite skipn_app.
  rewrite skipn_all2 by lia. cbn [app]. f_equal. lia.
Qed.
Lemma dropN_app_le : forall (a b : bytes) n, n <= lenN a -> dropN n (a ++ b) = dropN n a ++ b.
Proof.
  intros. rewrite !dropN_skipn. rewrite lenN_length in *. rewrite skipn_app.
  replace (N.to_nat n - length a)%nat with 0%nat by lia. reflexivity.
Qed.
Lemma takeN_app_ge : forall (a b : bytes) n, lenN a <= n -> takeN n (a ++ b) = a ++ takeN (n - lenN a) b.
Proof.
  intros. rewrite !takeN_firstn. rewrite lenN_length in *. rewrite firstn_app.
  rewrite firstn_all2 by lia. f_equal. f_equal. lia.
Qed.

Lemma dropN_dropN : forall {A} (l : list A) a b, dropN a (dropN b l) = dropN (a + b) l.
Proof.
  intros A l a b. rewrite !dropN_skipn.
  replace (N.to_nat (a + b)) with (N.to_nat b + N.to_nat a)%nat by lia.
  generalize (N.to_nat a) (N.to_nat b). intros x y. revert l.
  induction y as [|y IH]; intros l; [reflexivity|].
  destruct l as [|h t]; cbn [skipn Nat.add]; [now rewrite skipn_nil | apply IH].
Qed.

Lemma firstn_add : forall {A} (l : list A) a b, (firstn a l ++ firstn b (skipn a l) = firstn (a + b) l)%nat.
Proof.
  intros A l a. revert l. induction a as [|a IH]; intros l b; [reflexivity|].
  destruct l as [|x t]; cbn [firstn skipn Nat.add app]; [now destruct b|]. now rewrite IH.
Qed.
Lemma takeN_takeN_dropN : forall {A} (l : list A) a b, takeN a l ++ takeN b (dropN a l) = takeN (a + b) l.
Proof. intros A l a b. rewrite !takeN_firstn, dropN_skipn, N2Nat.inj_add. apply firstn_add. Qed.

Lemma takeN_takeN : forall {A} (l : list A) a b, takeN a (takeN b l) = takeN (N.min a b) l.
Proof. intros. rewrite !takeN_firstn, firstn_firstn. f_equal. lia. Qed.

Lemma Forall_takeN : forall (Q : N -> Prop) n l, Forall Q l -> Forall Q (takeN n l).
Proof.
  intros Q n l H. rewrite takeN_firstn. generalize (N.to_nat n). clear n.
  induction H as [|x t Hx Ht IH]; intros [|m]; cbn [firstn]; constructor; auto.
Qed.

Lemma forallb_map_some : forall {A} (f : option A -> bool) (l : list A),
  forallb f (map Some l) = forallb (fun x => f (Some x)) l.
Proof. induction l as [|x l IH]; cbn [map forallb]; [reflexivity|]. now rewrite IH. Qed.

Lemma forallb_ext' : forall {A} (f g : A -> bool) l, (forall x, f x = g x) -> forallb f l = forallb g l.
Proof. intros A f g l H. induction l as [|x l IH]; cbn [forallb]; [reflexivity|]. now rewrite H, IH. Qed.

Lemma sumN_app : forall a b, sumN (a ++ b) = sumN a + sumN b.
Proof. induction a as [|x a IH]; intros b; cbn [sumN app]; [reflexivity|]. rewrite IH. lia. Qed.

Lemma update_first_at : forall {A} (p : A -> bool) (f : A -> A) pre e post,
  Forall (fun x => p x = false) pre -> p e = true -> update_first p f (pre ++ e :: post) = (pre ++ f e :: post, true).
Proof.
  intros A p f pre e post H He. induction H as [|x t Hx Ht IH]; cbn [app update_first]; [now rewrite He|].
  rewrite Hx, IH. reflexivity.
Qed.

Lemma update_first_snd : forall {A} (p : A -> bool) (f : A -> A) l, snd (update_first p f l) = existsb p l.
Proof.
  intros A p f. induction l as [|x t IH]; [reflexivity|]. cbn [update_first existsb].
  destruct (p x); [reflexivity|]. destruct (update_first p f t). exact IH.
Qed.

Lemma update_first_existsb : forall {A} (p : A -> bool) (f : A -> A) l, (forall x, p (f x) = p x) ->
  existsb p (fst (update_first p f l)) = existsb p l.
Proof.
  intros A p f l Hf. induction l as [|x t IH]; [reflexivity|]. cbn [update_first].
  destruct (p x) eqn:Ex; [cbn [fst existsb]; now rewrite Hf, Ex|].
  destruct (update_first p f t). cbn [fst existsb] in *. now rewrite Ex, IH.
Qed.

Lemma existsb_update_first : forall {A} (q p : A -> bool) (f : A -> A) l,
  (forall x, p x = true -> q x = true -> q (f x) = true) ->
  existsb q l = true -> existsb q (fst (update_first p f l)) = true.
Proof.
  intros A q p f l Hf. induction l as [|x t IH]; intros H; cbn [update_first existsb] in *; [discriminate|].
  destruct (p x) eqn:Ep.
  - cbn [fst existsb]. destruct (q x) eqn:Eq; [now rewrite (Hf x Ep Eq)|]. cbn [orb] in H. rewrite H. apply orb_true_r.
  - destruct (update_first p f t) as [t' b]. cbn [fst existsb] in *. destruct (q x); [reflexivity|]. now apply IH.
Qed.

Lemma existsb_filter : forall {A} (q g : A -> bool) l, (forall x, q x = true -> g x = true) ->
  existsb q l = true -> existsb q (filter g l) = true.
Proof.
  intros A q g l Hg. induction l as [|x t IH]; intros H; cbn [existsb filter] in *; [discriminate|].
  destruct (q x) eqn:Eq; [rewrite (Hg x Eq); cbn [existsb]; now rewrite Eq|]. destruct (g x); cbn [existsb]; rewrite ?Eq; now apply IH.
Qed.

Lemma sumN_map_update_first_le : forall {A} (wt : A -> N) p f l, (forall x, wt (f x) <= wt x) ->
  sumN (map wt (fst (update_first p f l))) <= sumN (map wt l).
Proof.
  intros A wt p f l Hf. induction l as [|x t IH]; cbn [update_first]; [cbn; lia|].
  destruct (p x); [cbn [fst map sumN]; specialize (Hf x); lia|].
  destruct (update_first p f t) as [t' b]. cbn [fst map sumN] in *. lia.
Qed.

Lemma sumN_map_filter_le : forall {A} (wt : A -> N) g l, sumN (map wt (filter g l)) <= sumN (map wt l).
Proof. intros A wt g. induction l as [|x t IH]; cbn [filter map sumN]; [lia|]. destruct (g x); cbn [map sumN]; lia. Qed.

Lemma sumN_map_le : forall {A} (wt : A -> N) c l, (forall x, wt x <= c) -> sumN (map wt l) <= c * glen l.
Proof. intros A wt c l H. induction l as [|x t IH]; cbn [map sumN glen]; [lia|]. specialize (H x). lia. Qed.

Lemma nodup_pre_keys : forall {A} (key : A -> N) pre e post, NoDup (map key (pre ++ e :: post)) ->
  Forall (fun x => N.eqb (key x) (key e) = false) pre.
Proof.
  intros A key pre e post H. apply Forall_forall. intros x Hx. apply N.eqb_neq. intros E.
  rewrite map_app in H. cbn [map] in H. apply NoDup_remove_2 in H. apply H. apply in_or_app. left. rewrite <- E. now apply in_map.
Qed.

Lemma update_first_twice : forall {A} (p : A -> bool) (f g : A -> A) l,
  (forall x, p (g x) = p x) -> (forall x, f (g x) = f x) ->
  fst (update_first p f (fst (update_first p g l))) = fst (update_first p f l).
Proof.
  intros A p f g l Hp Hf. induction l as [|x t IH]; [reflexivity|]. cbn [update_first]. destruct (p x) eqn:E.
  - cbn [fst update_first]. now rewrite Hp, E, Hf.
  - destruct (update_first p g t) as [t1 b1]. destruct (update_first p f t) as [t2 b2]. cbn [fst update_first] in *. rewrite E.
    destruct (update_first p f t1) as [t3 b3]. cbn [fst] in *. now rewrite IH.
Qed.
