(* FillWhole.v — liveness of the packet reader on a behaving transport: when the bytes of one whole, canonically
   framed packet that fits the receive buffer are available, fill_packet_reader assembles exactly that packet
   (whatever window sequence the reader asks for) and stops with the packet available. *)
From Coq Require Import List NArith.
From Minimq Require Import Bytes Varint Reader Core Machine.
From Minimq Require Import ReaderInv Behaving ConnectOk Framing.
Import ListNotations.
Open Scope N_scope.

Section Whole.
Variables (h : N) (rl body : bytes).
Hypothesis Hrl : varint_write (lenN body) = Some rl.
Let P := h :: rl ++ body.
Let L := lenN P.

Definition at_k (r : reader) (k : N) : Prop :=
  rdata r = takeN k P /\ k <= L /\ L <= rcap r /\ RInv r /\ (forall pl, rplen r = Some pl -> pl = L).

Theorem fill_whole : forall m fuel w k t,
  at_k (rd w) k -> L - k <= N.of_nat m -> (m + 2 <= fuel)%nat -> w_script w = [] -> L <= BIG ->
  (k < L -> w_inq w = [(t, dropN k P)] /\ t <= w_now w) -> (k = L -> w_inq w = []) ->
  exists w', fill_packet_reader fuel None w = (w', FillOk) /\
    rdata (rd w') = P /\ rplen (rd w') = Some L /\ rcap (rd w') = rcap (rd w) /\
    w_sess w' = set_reader (w_sess w) (rd w') /\ w_inq w' = [] /\ w_script w' = [] /\ w_now w' = w_now w.
Proof. exact (fill_arrived h rl body Hrl None). Qed.
End Whole.
