(* Refine.v — the machine refines the session LTS: whatever an asynchronous operation does to the session,
   for every script (every schedule of partial writes, faults, timeouts and cancellations), is a path of `sstep`. *)
From Minimq Require Import Bytes Reader Arena Core Machine Io Blocks Effects Lts.

(* the ghost flag of the world has been and-ed with the environment flags of exactly the steps taken *)
Definition wq (w w' : world) : Prop :=
  exists b, ereach (w_sess w) b (w_sess w') /\ w_envok w' = w_envok w && b.

Lemma wq_refl : forall w, wq w w.
Proof. intros. exists true. split; [apply ereach_refl | now rewrite andb_true_r]. Qed.
Lemma wq_trans : forall a b c, wq a b -> wq b c -> wq a c.
Proof.
  intros a b c [x [H1 E1]] [y [H2 E2]]. exists (x && y). split; [eapply ereach_trans; eassumption|].
  rewrite E2, E1. now rewrite andb_assoc.
Qed.
Lemma wq_same : forall w w', w_sess w' = w_sess w /\ w_envok w' = w_envok w -> wq w w'.
Proof.
  intros w w' [H1 H2]. exists true. split; [rewrite H1; apply ereach_refl | now rewrite H2, andb_true_r].
Qed.
Lemma wq_frame : forall w w', io_frame w w' -> wq w w'.
Proof. intros w w' F. apply wq_same. split; [apply (fr_sess _ _ F) | apply (fr_envok _ _ F)]. Qed.
Lemma wq_step : forall w w' l, sstep (w_sess w) l (w_sess w') -> label_ok l = true -> w_envok w' = w_envok w -> wq w w'.
Proof.
  intros w w' l H Hl He. exists (label_ok l). split; [now apply ereach_step | now rewrite He, Hl, andb_true_r].
Qed.
Lemma wq_upd : forall w s' l, sstep (w_sess w) l s' -> label_ok l = true -> wq w (upd_sess w s').
Proof. intros w s' l H Hl. eapply wq_step; [exact H | exact Hl | reflexivity]. Qed.

Lemma connack_resumed_ob : forall s p now s', connack_process s p now = (s', CAOk true) -> s_ob s' = s_ob s.
Proof.
  intros s p now s' H. destruct (connack_cases _ _ _ _ _ H) as [[_ [e [d X]]]|[sp [rc [props [a [_ [_ [_ [-> X]]]]]]]]]; [discriminate|].
  injection X as <-. reflexivity.
Qed.

(* the cases come in the order of the constructors of `run` *)
Theorem run_wq : forall P w w', run P w w' -> wq w w'.
Proof.
  intros P w w'. induction 1 as [w|a b c _ IH1 _ IH2|bs w|w|win d w|w|w now|w st p bs wr len n _ Hn Ep _|w p now _|w r' pl _ _
    |w r' pl p _ _ _|w r' x _ _|w l|w r' win dl w1 b d _ _ _ _|b a l|w|w r|w t ps|w t ps|w|w s0 s1|w|w|w r' pl p _|w p].
  - apply wq_refl.
  - eapply wq_trans; eassumption.
  - apply wq_frame, io_write_frame.
  - apply wq_frame, io_flush_frame.
  - apply wq_frame, io_read_frame.
  - eapply wq_step; [apply SS_hd | reflexivity | reflexivity].
  - exact (wq_upd w _ _ (SS_ping _ now) eq_refl).
  - exact (wq_upd w _ _ (SS_written _ st p bs wr len n Hn Ep) eq_refl).
  - exact (wq_upd w _ _ (SS_flushed _ p now) eq_refl).
  - exact (wq_upd w _ _ (SS_reader _ r') eq_refl).
  - (* run_packet: the one step whose label carries an environment assumption, mirrored by the ghost flag *)
    eapply wq_trans; [exact (wq_upd w _ _ (SS_reader _ r') eq_refl)|].
    exists (ack_type_ok (set_reader (w_sess w) r') p). split; [|reflexivity].
    apply (ereach_step _ _ _ (SS_packet (set_reader (w_sess w) r') p)).
  - exact (wq_upd w _ _ (SS_reader _ r') eq_refl).
  - (* run_log *) apply wq_same. split; reflexivity.
  - exact (wq_upd w1 _ _ (SS_reader _ _) eq_refl).
  - (* run_mark *) apply wq_same. unfold mark_partial. destruct (_ && _); split; reflexivity.
  - exact (wq_upd w _ _ (SS_activity _ _) eq_refl).
  - exact (wq_upd w _ _ (SS_publish _ _ r) eq_refl).
  - exact (wq_upd w _ _ (SS_subscribe _ t ps) eq_refl).
  - exact (wq_upd w _ _ (SS_unsubscribe _ t ps) eq_refl).
  - (* run_poison *) apply wq_same. split; reflexivity.
  - (* run_connect_start: connect() starts by resetting reader and timers, arming the replay and compacting: four steps *)
    set (sa := set_reader s0 (reader_reset (s_reader s0))). set (sb := set_rt sa (reset_transport (s_rt s0))).
    eapply (wq_trans _ (upd_sess w sa)); [exact (wq_upd w sa _ (SS_reader _ _) eq_refl)|].
    eapply (wq_trans _ (upd_sess w sb)); [exact (wq_upd (upd_sess w sa) sb _ (SS_reset_transport sa) eq_refl)|].
    eapply (wq_trans _ (upd_sess w s1)); [exact (wq_upd (upd_sess w sb) s1 _ (SS_arm_replay sb) eq_refl)|].
    exact (wq_upd (upd_sess w s1) _ _ (SS_compact s1) eq_refl).
  - exact (wq_upd w _ _ (SS_timers_cleared _) eq_refl).
  - exact (wq_upd w _ _ (SS_hd _) eq_refl).
  - exact (wq_upd w _ _ (SS_reader _ r') eq_refl).
  - (* run_connack: the ghost flag records whether a resumed session's window covers what is carried over *)
    pose proof (SS_connack (w_sess w) p (w_now w)) as Hstep. unfold connack_label in Hstep.
    destruct (connack_process (w_sess w) p (w_now w)) as [s6 cr] eqn:Ec. cbn [fst snd] in Hstep.
    destruct cr as [resumed|e d]; [|exact (wq_upd w _ _ Hstep eq_refl)].
    eexists. split; [apply ereach_step; exact Hstep|]. cbn [upd_envok upd_sess w_envok label_ok].
    destruct resumed; [|reflexivity]. now rewrite (connack_resumed_ob _ _ _ _ Ec).
Qed.

Lemma hd_wq : forall w, wq w (w_hd w).
Proof. intros. apply (run_wq (fun _ => True)), run_hd. Qed.
Lemma perform_outbound_step_wq : forall st now w,
  next_step (s_ob (w_sess w)) = Some st -> wq w (fst (perform_outbound_step st now w)).
Proof. intros. now apply (run_wq (fun _ => True)), perform_outbound_step_run. Qed.
Lemma flush_outbound_wq : forall fuel w, wq w (fst (flush_outbound fuel w)).
Proof. intros. apply (run_wq (fun _ => True)), flush_outbound_run. Qed.
Lemma process_received_wq : forall w, wq w (fst (process_received w)).
Proof. intros. apply (run_wq (fun _ => True)), process_received_run. Qed.
Lemma service_wq : forall now w, wq w (fst (service now w)).
Proof. intros. apply (run_wq (fun _ => True)), service_run. Qed.
Lemma drive_loop_wq : forall fuel adv w, wq w (fst (drive_loop fuel adv w)).
Proof. intros. apply (run_wq (fun _ => True)), drive_loop_run. Qed.
Lemma fill_wq : forall fuel d w, wq w (fst (fill_packet_reader fuel d w)).
Proof. intros. apply (run_wq (fun _ => True)), fill_run. Qed.
Lemma wait_for_progress_wq : forall fuel w, wq w (fst (wait_for_progress fuel w)).
Proof. intros. apply (run_wq (fun _ => True)), wait_for_progress_run. Qed.
Lemma op_poll_wq : forall fuel w, wq w (fst (op_poll fuel w)).
Proof. intros. apply (run_wq (fun _ => True)), op_poll_run. Qed.
Lemma op_publish_wq : forall fuel r w, wq w (fst (op_publish fuel r w)).
Proof. intros. apply (run_wq (fun _ => True)), op_publish_run. Qed.
Lemma op_subscribe_wq : forall fuel t ps w, wq w (fst (op_subscribe fuel t ps w)).
Proof. intros. apply (run_wq (fun _ => True)), op_subscribe_run. Qed.
Lemma op_unsubscribe_wq : forall fuel t ps w, wq w (fst (op_unsubscribe fuel t ps w)).
Proof. intros. apply (run_wq (fun _ => True)), op_unsubscribe_run. Qed.
Lemma op_connect_wq : forall fuel w, wq w (fst (op_connect fuel w)).
Proof. intros. apply (run_wq (fun _ => True)), op_connect_run. Qed.

Lemma wq_sreach : forall w w', wq w w' -> sreach (w_sess w) (w_sess w').
Proof. intros w w' [b [H _]]. eapply ereach_sreach; exact H. Qed.

Lemma wq_closed : forall (P : session -> Prop), (forall s l s', sstep s l s' -> P s -> P s') ->
  forall w w', wq w w' -> P (w_sess w) -> P (w_sess w').
Proof. intros P Hc w w' [b [[ls [H _]] _]]. exact (spath_inv P Hc _ _ _ H). Qed.
