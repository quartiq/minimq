(* Measure.v — C16: a weight on the outbound queues that every engine step strictly decreases.  Hence, between two
   enqueues (publish / subscribe / owed acknowledgement / PINGREQ) and within one connection, the engine performs at most
   `work` write and flush steps: nothing is written for ever, nothing is sent twice. *)
From Coq Require Import List NArith Lia.
From Minimq Require Import Bytes Arena Core Machine Util Step Lts ArenaLemmas ArenaOps Inv Engine WireInv Wire.
Import ListNotations.
Local Open Scope N_scope.

Definition st_weight (st : sstate) (len : N) : N :=
  match st with SWrite w => 2 + (len - w) | SFlush => 1 | SSent => 0 end.

Definition work_ctl (l : list centry) : N := sumN (map (fun e => st_weight (ce_st e) (lenN (ctl_bytes (ce_act e)))) l).
Definition work_rel (l : list lentry) : N := sumN (map (fun e => st_weight (le_st e) (lenN (rel_bytes (le_pid e) (le_rc e)))) l).
Definition work_ret (l : list rentry) : N := sumN (map (fun e => st_weight (re_st e) (re_len e)) l).
Definition work (o : outbound) : N := work_ctl (ob_ctl o) + work_rel (ob_rel o) + work_ret (ob_ret o).

(* the same weight on `items`: in a well-formed arena a retained entry's recorded length is that of its bytes *)
Definition weight (i : item) : N := st_weight (fst i) (lenN (snd i)).

Lemma weight_pair : forall st bs, weight (st, bs) = st_weight st (lenN bs).
Proof. reflexivity. Qed.

Lemma work_items : forall o, arena_wf o -> work o = sumN (map weight (items o)).
Proof.
  intros o [W U]. unfold work, items, work_ctl, work_rel, work_ret. rewrite !map_app, !sumN_app, !map_map, N.add_assoc.
  f_equal. f_equal. apply map_ext_in. intros e Hi. unfold weight, ret_item. cbn [fst snd]. f_equal.
  symmetry. apply lenN_sliceN. pose proof (wf_layout_bound _ _ _ _ W Hi). lia.
Qed.

Lemma WInv_arena : forall s, WInv s -> arena_wf (s_ob s).
Proof. intros s [I _]. exact (oi_arena _ (inv_ob _ I)). Qed.

Lemma sws_weight : forall w n len, 1 <= n -> st_weight (set_written_state (w + n) len) len < st_weight (SWrite w) len.
Proof.
  intros w n len Hn. unfold set_written_state. destruct (N.leb_spec len (w + n)); cbn [st_weight]; lia.
Qed.

(* both steps change one position of `items`: the entry served *)
Theorem write_step_decreases : forall s st p bs w len n,
  WInv s -> next_step (s_ob s) = Some st -> prepare_step s st = PWrite p bs w len -> 1 <= n ->
  work (s_ob (fst (set_written s p (w + n) len))) < work (s_ob s).
Proof.
  intros s st p bs w len n I Hn Hp Hn1.
  destruct (write_focus s st p bs w len (WInv_served s I) Hn Hp) as [pre [post [E0 [E1 _]]]].
  destruct (prepared_frame s st p bs w len I Hn Hp) as [<- _].
  assert (I' : WInv (fst (set_written s p (w + n) (lenN bs)))) by (eapply WInv_step; [eapply SS_written; eassumption|exact I]).
  rewrite !work_items by now apply WInv_arena. rewrite E0, E1, !map_app, !sumN_app. cbn [map sumN]. rewrite !weight_pair.
  pose proof (sws_weight w n (lenN bs) Hn1). lia.
Qed.

Theorem flush_step_decreases : forall s st p now,
  WInv s -> next_step (s_ob s) = Some st -> prepare_step s st = PFlush p ->
  work (s_ob (fst (complete_flush s p now))) < work (s_ob s).
Proof.
  intros s st p now I Hn Hp.
  destruct (flush_focus s st p (WInv_served s I) Hn Hp) as [pre [post [bs [mid [E0 [Hm [E1 _]]]]]]].
  assert (I' : WInv (fst (complete_flush s p now))) by (eapply WInv_step; [apply SS_flushed|exact I]).
  rewrite !work_items by now apply WInv_arena. rewrite E0, E1, !map_app, !sumN_app. cbn [map sumN].
  destruct Hm as [->| ->]; cbn [map sumN]; rewrite !weight_pair; cbn [st_weight]; lia.
Qed.

(* the entry becomes Sent, and a Sent control entry leaves *)
Lemma work_put_sent : forall o p, work (put o p SSent) <= work o.
Proof.
  intros o p. unfold work. destruct p; cbn [put with_ctl with_rel with_ret ob_ctl ob_rel ob_ret];
    repeat apply N.add_le_mono; try apply N.le_refl; apply sumN_map_update_first_le; intros x; apply N.le_0_l.
Qed.

Lemma flush_never_raises : forall s p now, work (s_ob (fst (complete_flush s p now))) <= work (s_ob s).
Proof.
  intros s p now. rewrite complete_flush_put. eapply N.le_trans; [|apply work_put_sent with (p := p)].
  destruct p; try apply N.le_refl. unfold flushed, work. cbn [put with_ctl ob_ctl ob_rel ob_ret].
  repeat apply N.add_le_mono; try apply N.le_refl. apply sumN_map_filter_le.
Qed.

Theorem progress_decreases_work : forall st now w w',
  WInv (w_sess w) -> next_step (s_ob (w_sess w)) = Some st ->
  perform_outbound_step st now w = (w', ODone true) ->
  work (s_ob (w_sess w')) < work (s_ob (w_sess w)).
Proof.
  intros st now w w' I Hn H.
  destruct (perform_cases _ _ _ _ _ H) as [_ [[p [bs [wr [len [n [[Ep [Hn0 [_ [_ ->]]]] _]]]]]]|[[p [bs [wr [len [n [[Ep [Hn0 [_ [_ ->]]]] _]]]]]]|[p [Ep [_ ->]]]]]].
  - eapply write_step_decreases; eauto. lia.
  - (* complete: the flush only lowers the work further *)
    eapply N.le_lt_trans; [apply flush_never_raises|]. eapply write_step_decreases; eauto. lia.
  - eapply flush_step_decreases; eauto.
Qed.
