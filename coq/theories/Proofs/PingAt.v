(* PingAt.v — C10 at the level of the machine: while the application waits in poll() on a behaving transport and nothing
   arrives, the wait sleeps exactly until the PINGREQ deadline, the PINGREQ is queued, written and flushed AT that instant
   (virtual time does not pass inside the engine), the round-trip timer is armed for deadline + 5 s and no further PINGREQ
   is due (`PQ`); and an unanswered PINGREQ ends the wait with the disconnected error exactly at its timeout, no earlier. *)
From Coq Require Import List NArith Lia.
From Minimq Require Import Bytes Ser De Reader Arena Core Machine Run Io Lts WireInv Wire Terminate ConnectOk
  PingQuiet Healthy Engine Owed Sends Framing Drain Liveness Effects.
Import ListNotations.
Local Open Scope N_scope.

Lemma io_read_timeout : forall win d w, win <> 0 -> w_script w = [] -> w_inq w = [] -> w_now w < d -> w_waits w < MAX_WAITS ->
  exists w1, io_read win (Some d) w = (w1, RTimeout) /\
    w_sess w1 = w_sess w /\ w_script w1 = [] /\ w_inq w1 = [] /\ w_now w1 = d /\ w_live w1 = w_live w /\ w_wire w1 = w_wire w /\
    w_waits w1 = w_waits w + 1.
Proof.
  intros win d w Hw Hs Hi Hn Hwt. unfold io_read.
  destruct (N.eqb_spec win 0) as [E|_]; [contradiction|].
  rewrite (next_ev_nil w Hs). cbn [N.eqb]. rewrite Hi. cbn [avail_split next_arrival].
  rewrite (proj2 (N.leb_gt _ _) Hn), (proj2 (N.leb_gt _ _) Hwt).
  cbn [w_inq upd_log upd_waits upd_now]. rewrite Hi. cbn [avail_split].
  eexists. split; [reflexivity|]. cbn [w_sess w_script w_inq w_now w_live w_wire w_waits upd_log upd_waits upd_now]. repeat split; assumption.
Qed.

Lemma maybe_queue_frame : forall s now s1 e, maybe_queue_pingreq s now = (s1, e) -> s_reader s1 = s_reader s /\ s_rt s1 = s_rt s.
Proof. intros s now s1 e H. destruct (maybe_queue_pingreq_cases _ _ _ _ H) as [->|[o [_ [-> _]]]]; split; reflexivity. Qed.

(* the ping decision made by the first service step can be taken out of the loop *)
Lemma drive_loop_pinged : forall f adv w s1,
  NA w -> ping_timed_out (w_sess w) (w_now w) = false -> maybe_queue_pingreq (w_sess w) (w_now w) = (s1, None) ->
  drive_loop (S f) adv w = drive_loop (S f) adv (upd_sess w s1).
Proof.
  intros f adv w s1 Hna Ht Hq. destruct (maybe_queue_frame _ _ _ _ Hq) as [Er Ert].
  rewrite !drive_loop_unfold.
  assert (Ep : process_received w = (w, ODone None)) by (unfold process_received; unfold NA in Hna; rewrite Hna; reflexivity).
  assert (Ep' : process_received (upd_sess w s1) = (upd_sess w s1, ODone None)).
  { unfold process_received. cbn [w_sess upd_sess]. rewrite Er. unfold NA in Hna. rewrite Hna. reflexivity. }
  rewrite Ep, Ep'. cbn [w_sess upd_sess]. rewrite Er. unfold NA in Hna. rewrite Hna.
  unfold service. cbn [w_sess w_now upd_sess]. rewrite Ht.
  assert (Ht' : ping_timed_out s1 (w_now w) = false) by (unfold ping_timed_out in *; rewrite Ert; exact Ht).
  rewrite Ht', Hq.
  assert (Hq' : maybe_queue_pingreq s1 (w_now w) = (s1, None)).
  { unfold maybe_queue_pingreq. rewrite (pinged_pq _ _ _ Hq). reflexivity. }
  rewrite Hq'. cbn [w_sess upd_sess].
  replace (upd_sess (upd_sess w s1) s1) with (upd_sess w s1) by (destruct w; reflexivity). reflexivity.
Qed.

Definition ping_entry : centry := {| ce_act := CPing; ce_st := SWrite 0 |}.

Lemma next_step_with_ctl_nil : forall o, next_step o = None -> next_step (with_ctl o []) = None.
Proof.
  intros o H. apply next_step_none in H. apply next_step_none. unfold items in *. rewrite Forall_app in H. exact (proj2 H).
Qed.

Lemma next_step_pinged : forall o, next_step o = None -> next_step (with_ctl o [ping_entry]) = Some (StCtl CPing (SWrite 0)).
Proof.
  intros o H. apply next_step_none in H. unfold items in H. rewrite Forall_app in H. destruct H as [_ H].
  (* nothing is in progress, so the second pass picks, and the PINGREQ is the first fresh entry *)
  unfold next_step. replace (next_step_pass (with_ctl o [ping_entry]) true) with (@None ostep); [reflexivity|].
  symmetry. apply pass_none. unfold items. cbn [with_ctl ob_ctl ob_rel ob_ret ob_buf map app]. constructor; [reflexivity|].
  eapply Forall_impl; [|exact H]. intros i [Q _]. exact Q.
Qed.

Lemma pinged_state : forall s now d, WInv s -> next_step (s_ob s) = None ->
  rt_ping_timeout (s_rt s) = None -> rt_mps (s_rt s) = None -> rt_next_ping (s_rt s) = Some d -> d <= now ->
  maybe_queue_pingreq s now = (set_ob s (with_ctl (s_ob s) [ping_entry]), None).
Proof.
  intros s now d [_ [_ [_ Hc]]] Hn Hpt Hm Hnp Hd.
  pose proof (drained_ctl_nil _ Hc Hn) as Ec.
  unfold maybe_queue_pingreq, should_queue_pingreq, has_pending_pingreq. rewrite Hpt, Hnp, Ec. cbn [existsb negb andb].
  destruct (N.leb_spec d now) as [_|L]; [|lia].
  unfold check_control_size. rewrite Hm. change (encode_control_packet CPing) with (SOk 3 [192; 0]). cbn [too_large].
  unfold queue_control. rewrite Ec. cbn [glen]. change (MAX_PENDING_CONTROL <=? 0) with false. cbv iota. cbn [app].
  reflexivity.
Qed.

Lemma owed_pinged : forall o, next_step o = None -> owed (with_ctl o [ping_entry]) = [192; 0].
Proof.
  intros o H. apply next_step_none in H. unfold items in H. rewrite Forall_app in H. destruct H as [_ H].
  rewrite owed_items. unfold items. cbn [with_ctl ob_ctl ob_rel ob_ret ob_buf map app]. unfold ctl_item at 1 2. rewrite !Gi_cons, Gi_part_quiet, Gi_fresh_stale; [reflexivity| |];
    (eapply Forall_impl; [|exact H]); intros i [Q S]; assumption.
Qed.

Lemma fresh_rb : forall r, rdata r = [] -> rplen r = None -> 1 <= rcap r -> receive_buffer r = (r, Some 1).
Proof.
  intros r Hd Hp Hc. unfold receive_buffer. rewrite Hp. unfold probe, read_bytes. rewrite Hd.
  cbn [lenN lenN_acc]. change (0 <=? 1) with true. cbv beta iota. rewrite Hp. unfold read_bytes. rewrite Hd. cbn [lenN lenN_acc].
  destruct (N.leb_spec (0 + 1) (rcap r)) as [_|L]; [|lia]. reflexivity.
Qed.

Lemma with_ctl_twice : forall o a b, with_ctl (with_ctl o a) b = with_ctl o b.
Proof. reflexivity. Qed.

Lemma set_reader_id : forall s, set_reader s (s_reader s) = s.
Proof. intros s. destruct s; reflexivity. Qed.

Lemma Hc_pinged : forall w s1, Hc w -> maybe_queue_pingreq (w_sess w) (w_now w) = (s1, None) -> Hd (upd_sess w s1).
Proof.
  intros w s1 Hcw Hq. split; [|split; [exact (pinged_pq _ _ _ Hq)|apply calm_nil, Hcw]].
  assert (I1 : WInv s1).
  { replace s1 with (fst (maybe_queue_pingreq (w_sess w) (w_now w))) by now rewrite Hq. eapply WInv_step; [apply SS_ping|apply Hcw]. }
  destruct (maybe_queue_pingreq_cases _ _ _ _ Hq) as [->|[o [Eo [-> _]]]]; [now rewrite upd_sess_id|].
  destruct Hcw as [Hs [Hl [_ [Hm [Hpt [HB [Fc [Fl Ft]]]]]]]]. unfold queue_control in Eo. destruct (_ <=? _); [discriminate|]. injection Eo as <-.
  refine (conj Hs (conj Hl (conj I1 (conj Hm (conj Hpt (conj HB (conj _ (conj Fl Ft)))))))).
  apply Forall_app. split; [exact Fc|]. constructor; [reflexivity|constructor].
Qed.

Lemma wait_sleeps : forall f w d,
  Hc w -> PQ w -> rdata (rd w) = [] -> rplen (rd w) = None -> 1 <= rcap (rd w) ->
  next_step (s_ob (w_sess w)) = None -> next_deadline (s_rt (w_sess w)) = Some d -> w_now w < d ->
  w_inq w = [] -> w_waits w < MAX_WAITS ->
  exists w1, wait_for_progress (S f) w = wait_for_progress f w1 /\
    w_sess w1 = w_sess w /\ w_script w1 = [] /\ w_inq w1 = [] /\ w_now w1 = d /\ w_live w1 = true /\ w_wire w1 = w_wire w.
Proof.
  intros f w d Hcw Hq Hrd Hrp Hcap Hn Hdl Hlt Hi Hwt. pose proof Hcw as [Hs [Hl _]].
  assert (Hna : NA w) by (unfold NA, packet_available; fold (rd w); rewrite Hrp; reflexivity).
  destruct (Hd_service w (conj Hcw Hq)) as [Ht _].
  rewrite wait_unfold. unfold drive_packet. rewrite Hl. cbn [negb]. rewrite (drive_loop_quiet _ false w Hna Ht (proj1 Hq) Hn).
  cbv beta iota. rewrite Hdl, Hl. cbn [negb].
  unfold fill_packet_reader. cbn [fill_go]. unfold NA in Hna. fold (rd w) in Hna |- *. rewrite Hna, (fresh_rb (rd w) Hrd Hrp Hcap). unfold rd. rewrite set_reader_id, upd_sess_id.
  change (1 =? 0) with false. cbv iota. change (timer_fired false ?dd ?ww) with false. cbv iota.
  destruct (io_read_timeout 1 d w ltac:(discriminate) Hs Hi Hlt Hwt) as [w1 [Er [S1 [C1 [Q1 [N1 [L1 [W1 _]]]]]]]].
  rewrite Er. exists w1. split; [reflexivity|]. exact (conj S1 (conj C1 (conj Q1 (conj N1 (conj (eq_trans L1 Hl) W1))))).
Qed.

Theorem poll_pings_at_deadline : forall w d,
  Hc w -> rdata (rd w) = [] -> rplen (rd w) = None -> 1 <= rcap (rd w) ->
  next_step (s_ob (w_sess w)) = None ->
  rt_next_ping (s_rt (w_sess w)) = Some d -> w_now w < d -> rt_ping_timeout (s_rt (w_sess w)) = None ->
  w_inq w = [] -> w_waits w < MAX_WAITS ->
  exists w', op_poll FUEL w = (w', ODone None) /\ w_now w' = d /\ w_wire w' = w_wire w ++ [192; 0] /\
    rt_ping_timeout (s_rt (w_sess w')) = Some (d + ROUND_TRIP_TIMEOUT_MS) /\
    PQ w' /\ next_step (s_ob (w_sess w')) = None.
Proof.
  intros w d Hcw Hrd Hrp Hcap Hn Hnp Hlt Hpt Hi Hwt.
  pose proof Hcw as [Hs [Hl [I [Hm [_ [HB HF]]]]]].
  destruct FUEL_big as [f Hf]. rewrite Hf. clear Hf. unfold op_poll.
  assert (Hna : packet_available (rd w) = false) by (unfold packet_available; rewrite Hrp; reflexivity).
  assert (Hq : PQ w).
  { split; [|apply calm_nil; exact Hs]. unfold should_queue_pingreq. rewrite Hpt, Hnp. rewrite (proj2 (N.leb_gt _ _) Hlt). reflexivity. }
  assert (Hdl : next_deadline (s_rt (w_sess w)) = Some d) by (unfold next_deadline; now rewrite Hnp, Hpt).
  destruct (wait_sleeps (S (S (S (S f)))) w d Hcw Hq Hrd Hrp Hcap Hn Hdl Hlt Hi Hwt) as [w1 [Er [S1 [C1 [Q1 [N1 [L1 W1]]]]]]]. rewrite Er.
  (* second pass, at the deadline: the PINGREQ is queued, written and flushed *)
  assert (Hc1 : Hc w1).
  { unfold Hc. rewrite S1, C1, L1, Hpt. split; [reflexivity|]. split; [reflexivity|]. split; [exact I|]. split; [exact Hm|].
    split; [discriminate|exact (conj HB HF)]. }
  assert (Na1 : NA w1) by (unfold NA; rewrite S1; exact Hna).
  assert (Ht1 : ping_timed_out (w_sess w1) (w_now w1) = false) by (unfold ping_timed_out; rewrite S1, Hpt; reflexivity).
  set (s1 := set_ob (w_sess w) (with_ctl (s_ob (w_sess w)) [ping_entry])).
  assert (Hp1 : maybe_queue_pingreq (w_sess w1) (w_now w1) = (s1, None)) by (rewrite S1, N1; exact (pinged_state _ d d I Hn Hpt Hm Hnp (N.le_refl d))).
  rewrite wait_unfold. unfold drive_packet. rewrite L1. cbn [negb]. rewrite (drive_loop_pinged _ false w1 _ Na1 Ht1 Hp1).
  set (w3 := upd_sess w1 s1). pose proof (Hc_pinged w1 s1 Hc1 Hp1) as H3. fold w3 in H3. pose proof H3 as [Hc3 Q3].
  assert (I3 : WInv (w_sess w3)) by apply Hc3.
  assert (En3 : next_step (s_ob (w_sess w3)) = Some (StCtl CPing (SWrite 0))) by (apply next_step_pinged; exact Hn).
  destruct (healthy_perform_core _ w3 Hc3 En3) as [w4 [E4 [Hc4 [R4 [N4 [X4 _]]]]]].
  destruct (X4 eq_refl) as [len S4]. cbn [pkt_of] in S4.
  assert (OT4 : s_ob (w_sess w4) = with_ctl (s_ob (w_sess w)) [] /\
                rt_ping_timeout (s_rt (w_sess w4)) = Some (w_now w3 + ROUND_TRIP_TIMEOUT_MS)).
  { rewrite S4. unfold complete_flush, set_written, set_control_written, flush_control.
    cbn [w3 w_sess upd_sess s1 s_ob s_rt set_ob with_ctl ob_ctl update_first ping_entry ce_act caction_eqb fst set_rt filter ce_st sstate_eqb
         negb note_outbound_activity rt_with_timers rt_ping_timeout].
    split; reflexivity. }
  destruct OT4 as [O4 T4].
  assert (En4 : next_step (s_ob (w_sess w4)) = None) by (rewrite O4; apply next_step_with_ctl_nil; exact Hn).
  assert (Na3 : NA w3) by exact Hna.
  rewrite (drive_loop_last_step _ false w3 _ w4 Na3 (proj1 (Hd_service w3 H3)) (proj1 Q3) En3 E4 En4).
  pose proof (step_conserves _ _ _ _ _ I3 En3 E4 Logic.I) as Hcons. unfold total in Hcons.
  rewrite (owed_no_step _ En4), app_nil_r in Hcons. change (s_ob (w_sess w3)) with (with_ctl (s_ob (w_sess w)) [ping_entry]) in Hcons.
  rewrite (owed_pinged _ Hn) in Hcons. change (w_wire w3) with (w_wire w1) in Hcons. change (w_now w3) with (w_now w1) in N4, T4.
  exists w4. rewrite N4, Hcons, T4, N1, W1.
  exact (conj eq_refl (conj eq_refl (conj eq_refl (conj eq_refl (conj (proj1 (step_pq _ _ _ _ Q3 E4 Logic.I)) En4))))).
Qed.

Theorem poll_times_out_at_bound : forall w t,
  Hc w -> rdata (rd w) = [] -> rplen (rd w) = None -> 1 <= rcap (rd w) ->
  next_step (s_ob (w_sess w)) = None ->
  rt_ping_timeout (s_rt (w_sess w)) = Some t -> w_now w < t ->
  (forall d, rt_next_ping (s_rt (w_sess w)) = Some d -> t <= d) ->
  w_inq w = [] -> w_waits w < MAX_WAITS ->
  exists w', op_poll FUEL w = (w', OFail EDisconnected) /\ w_now w' = t /\ w_live w' = false /\ w_wire w' = w_wire w.
Proof.
  intros w t Hcw Hrd Hrp Hcap Hn Hpt Hlt Hnp Hi Hwt.
  pose proof Hcw as [Hs [Hl [I [Hm [_ [HB HF]]]]]].
  destruct FUEL_big as [f Hf]. rewrite Hf. clear Hf. unfold op_poll.
  assert (Hna : packet_available (rd w) = false) by (unfold packet_available; rewrite Hrp; reflexivity).
  assert (Hq : PQ w) by (split; [unfold should_queue_pingreq; rewrite Hpt; reflexivity|apply calm_nil; exact Hs]).
  assert (Hdl : next_deadline (s_rt (w_sess w)) = Some t).
  { unfold next_deadline. rewrite Hpt. destruct (rt_next_ping (s_rt (w_sess w))) as [d|] eqn:E; [|reflexivity].
    specialize (Hnp d eq_refl). f_equal. lia. }
  destruct (wait_sleeps (S (S (S (S f)))) w t Hcw Hq Hrd Hrp Hcap Hn Hdl Hlt Hi Hwt) as [w1 [Er [S1 [C1 [Q1 [N1 [L1 W1]]]]]]]. rewrite Er.
  rewrite wait_unfold. unfold drive_packet. rewrite L1. cbn [negb]. rewrite drive_loop_unfold.
  assert (Ep1 : process_received w1 = (w1, ODone None)) by (unfold process_received; rewrite S1; fold (rd w); rewrite Hna; reflexivity).
  rewrite Ep1, S1. fold (rd w). rewrite Hna.
  unfold service, ping_timed_out. rewrite S1, Hpt, N1. rewrite N.leb_refl.
  eexists. split; [reflexivity|]. cbn [w_hd w_now w_live w_wire upd_live upd_sess]. split; [exact N1|]. split; [reflexivity|exact W1].
Qed.

(* non-vacuity: a fresh connection with a keep-alive of 30 s, a broker that stays silent *)
Definition ex_cfgk : config :=
  {| cf_rx := 64; cf_tx := 128; cf_client_id := [99]; cf_keepalive_s := 30; cf_expiry := 0;
     cf_downgrade := false; cf_will := None; cf_auth := None |}.
Definition ex_ka : world :=
  run_case {| c_cfg := ex_cfgk; c_prog := [ASetBroker 2; AConnect []; ASetBroker 0]; c_script := [] |}.
Definition ex_ka2 : world := fst (op_poll FUEL ex_ka).

Example ping_example :
  w_now ex_ka = 0 /\ rt_next_ping (s_rt (w_sess ex_ka)) = Some 25000 /\
  snd (op_poll FUEL ex_ka) = ODone None /\ w_now ex_ka2 = 25000 /\ w_wire ex_ka2 = w_wire ex_ka ++ [192; 0] /\
  rt_ping_timeout (s_rt (w_sess ex_ka2)) = Some 30000 /\ rt_next_ping (s_rt (w_sess ex_ka2)) = Some 50000 /\
  snd (op_poll FUEL ex_ka2) = OFail EDisconnected /\ w_now (fst (op_poll FUEL ex_ka2)) = 30000 /\
  w_live (fst (op_poll FUEL ex_ka2)) = false.
Proof. vm_compute. repeat split. Qed.

Example ping_hyps_met :
  Hc ex_ka /\ rdata (rd ex_ka) = [] /\ rplen (rd ex_ka) = None /\ 1 <= rcap (rd ex_ka) /\
  next_step (s_ob (w_sess ex_ka)) = None /\ rt_next_ping (s_rt (w_sess ex_ka)) = Some 25000 /\ w_now ex_ka < 25000 /\
  rt_ping_timeout (s_rt (w_sess ex_ka)) = None /\ w_inq ex_ka = [] /\ w_waits ex_ka < MAX_WAITS.
Proof.
  assert (I0 : WInv (w_sess ex_ka)) by (unfold ex_ka; apply (proj1 (run_case_good _))).
  assert (Sc : w_script ex_ka = []) by (vm_compute; reflexivity).
  assert (Lv : w_live ex_ka = true) by (vm_compute; reflexivity).
  assert (Mp : rt_mps (s_rt (w_sess ex_ka)) = None) by (vm_compute; reflexivity).
  assert (Pt : rt_ping_timeout (s_rt (w_sess ex_ka)) = None) by (vm_compute; reflexivity).
  assert (Np : rt_next_ping (s_rt (w_sess ex_ka)) = Some 25000) by (vm_compute; reflexivity).
  assert (Bl : lenN (ob_buf (s_ob (w_sess ex_ka))) <= BIG) by (vm_compute; intros X; discriminate X).
  assert (Ec : map ce_st (ob_ctl (s_ob (w_sess ex_ka))) = []) by (vm_compute; reflexivity).
  assert (El : map le_st (ob_rel (s_ob (w_sess ex_ka))) = []) by (vm_compute; reflexivity).
  assert (Er : map re_st (ob_ret (s_ob (w_sess ex_ka))) = []) by (vm_compute; reflexivity).
  assert (Rd : rdata (rd ex_ka) = []) by (vm_compute; reflexivity).
  assert (Rp : rplen (rd ex_ka) = None) by (vm_compute; reflexivity).
  assert (Rc : 1 <= rcap (rd ex_ka)) by (vm_compute; intros X; discriminate X).
  assert (Ns : next_step (s_ob (w_sess ex_ka)) = None) by (vm_compute; reflexivity).
  assert (Nw : w_now ex_ka < 25000) by (vm_compute; reflexivity).
  assert (Iq : w_inq ex_ka = []) by (vm_compute; reflexivity).
  assert (Wt : w_waits ex_ka < MAX_WAITS) by (vm_compute; reflexivity).
  split; [|repeat (split; [assumption|]); assumption].
  unfold Hc. split; [exact Sc|]. split; [exact Lv|]. split; [exact I0|]. split; [exact Mp|].
  split; [intros d E; pose proof (eq_trans (eq_sym Pt) E) as X; discriminate X|]. split; [exact Bl|].
  unfold Fr. rewrite (map_eq_nil _ _ Ec), (map_eq_nil _ _ El), (map_eq_nil _ _ Er). repeat split; constructor.
Qed.

(* no assumption on the keep-alive timer: a PINGREQ that falls due joins the queue *)
Theorem drive_sends_all_any : forall fuel w s1,
  Hc w -> NA w -> maybe_queue_pingreq (w_sess w) (w_now w) = (s1, None) -> M s1 < N.of_nat (S fuel) ->
  exists w', op_drive (S fuel) w = (w', ODone None) /\ next_step (s_ob (w_sess w')) = None /\ Hd w' /\ NA w' /\
    w_now w' = w_now w /\ w_wire w' = w_wire w ++ owed (s_ob s1).
Proof.
  intros fuel w s1 Hcw Hna Hq Hm. pose proof Hcw as [_ [Hl [_ [_ [Hpt _]]]]].
  assert (Ht : ping_timed_out (w_sess w) (w_now w) = false).
  { unfold ping_timed_out. destruct (rt_ping_timeout (s_rt (w_sess w))) as [d|] eqn:E; [|reflexivity]. specialize (Hpt d eq_refl). apply N.leb_gt. exact Hpt. }
  unfold op_drive, drive_packet. rewrite Hl. cbn [negb]. rewrite (drive_loop_pinged _ false w s1 Hna Ht Hq).
  pose proof (Hc_pinged w s1 Hcw Hq) as H3.
  assert (Na3 : NA (upd_sess w s1)) by (unfold NA; cbn [w_sess upd_sess]; rewrite (proj1 (maybe_queue_frame _ _ _ _ Hq)); exact Hna).
  destruct (drive_loop_drains (S fuel) false _ H3 Na3 Hm) as [w' [pr [E [Hpr [Hn [Hd' [Na' Nw']]]]]]].
  pose proof (drive_loop_wire _ _ _ _ _ H3 Na3 E) as Hw. rewrite E.
  exists w'. split; [rewrite Hpr; destruct (false || _); reflexivity|]. split; [exact Hn|]. split; [exact Hd'|]. split; [exact Na'|].
  split; [exact Nw'|exact Hw].
Qed.

(* a PINGRESP received in time never leads to a disconnect *)

Definition bt (w : world) : N * bytes * N := (w_broker w, w_txbuf w, w_last_arrival w).

Theorem poll_pingresp_clears : forall w t t0,
  2 <= rcap (rd w) -> w_live w = true -> rdata (rd w) = [] -> rplen (rd w) = None ->
  next_step (s_ob (w_sess w)) = None ->
  rt_ping_timeout (s_rt (w_sess w)) = Some t0 -> w_now w < t0 ->
  (forall d, rt_next_ping (s_rt (w_sess w)) = Some d -> w_now w < d) ->
  w_script w = [] -> w_inq w = [(t, [208; 0])] -> t <= w_now w ->
  exists w', op_poll FUEL w = (w', ODone None) /\ w_live w' = true /\ w_now w' = w_now w /\ w_wire w' = w_wire w /\
    rt_ping_timeout (s_rt (w_sess w')) = None /\ rt_next_ping (s_rt (w_sess w')) = rt_next_ping (s_rt (w_sess w)) /\
    s_ob (w_sess w') = s_ob (w_sess w).
Proof.
  intros w t t0 Hcap Hl Hd Hpl Hn Hpt Hlt Hnp Hs Hi Ht.
  set (s3 := set_reader (w_sess w) (reader_reset (rd w))).
  destruct (poll_arrived w 208 [0] [] t RPingResp (set_rt s3 (rt_with_timers (s_rt s3) (rt_next_ping (s_rt s3)) None)) false eq_refl)
    as [w' [E [S4 [_ [_ [N4 [L4 [W4 _]]]]]]]]; try assumption; try reflexivity.
  - intros X; discriminate X.
  - unfold ping_timed_out. rewrite Hpt. apply N.leb_gt. exact Hlt.
  - unfold should_queue_pingreq. now rewrite Hpt.
  - intros _. split; [exact Hn|]. split; [reflexivity|]. apply not_due_quiet; [exact Hnp|reflexivity].
  - exists w'. rewrite S4. auto 10.
Qed.

(* computed: the same connection with a broker that answers: PINGREQ at 25 s, PINGRESP, timer cleared, connection alive *)
Definition ex_kb : world :=
  run_case {| c_cfg := ex_cfgk; c_prog := [ASetBroker 2; AConnect []; ASetBroker 1]; c_script := [] |}.
Definition ex_kb2 : world := fst (op_poll FUEL ex_kb).
Example pingresp_example :
  snd (op_poll FUEL ex_kb) = ODone None /\ w_now ex_kb2 = 25000 /\ w_inq ex_kb2 = [(25000, [208; 0])] /\
  rt_ping_timeout (s_rt (w_sess ex_kb2)) = Some 30000 /\
  snd (op_poll FUEL ex_kb2) = ODone None /\ rt_ping_timeout (s_rt (w_sess (fst (op_poll FUEL ex_kb2)))) = None /\
  w_live (fst (op_poll FUEL ex_kb2)) = true /\ w_now (fst (op_poll FUEL ex_kb2)) = 25000.
Proof. vm_compute. repeat split. Qed.
