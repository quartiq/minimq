(* Exchange.v — C16, whole exchanges against the automatic broker (mode 1: answers as MQTT prescribes), as theorems about the
   machine.  `Conn` / `Await` describe a healthy connection without keep-alive between two calls of an exchange: what is in
   flight and what the broker has answered.  A request retained on an empty arena is written whole, the broker answers
   (`request_sent`); poll() reads the answer and the session handles it (`Liveness.poll_arrived`, `poll_answer`); together
   `acked_exchange`.  The QoS 1 exchange, publish() then one poll(), is the first instance. *)
From Minimq Require Import Bytes Varint Props Ser De Reader Arena Core Machine Run Util Lts
  VarintProofs CodecProofs ArenaLemmas ArenaOps Inv Status WireInv Wire
  Effects ConnectOk PingQuiet Engine Healthy Owed Sends Pings Framing Liveness BrokerProofs Io.
Import ListNotations.
Local Open Scope N_scope.
Local Opaque u16_be.

Lemma publish_layout : forall cap r off bs ps id,
  enc_publish cap r = SOk off bs -> pq_props r = PSlice ps -> pq_pid r = Some id ->
  exists rl rest,
    bs = (3 * 16 + publish_flags r mod 16) :: rl ++ (u16_be (lenN (pq_topic r)) ++ pq_topic r) ++ u16_be id ++ rest /\
    varint_write (lenN ((u16_be (lenN (pq_topic r)) ++ pq_topic r) ++ u16_be id ++ rest)) = Some rl /\
    lenN (pq_topic r) < 65536.
Proof.
  intros cap r off bs ps id He Hp Hid. unfold enc_publish in He.
  destruct (encode_payload_inv _ _ _ _ _ _ _ He) as [rl [cc [Hcc [Hrl [-> _]]]]].
  unfold publish_chunks in Hcc. rewrite Hp, Hid in Hcc. rewrite !concat_chunks_app in Hcc. cbn [concat_chunks] in Hcc.
  unfold c_str, len_prefixed in Hcc.
  destruct (N.ltb_spec 65535 (lenN (pq_topic r))) as [|Hlt]; [discriminate Hcc|]. rewrite app_nil_r in Hcc.
  unfold c_properties, c_varint in Hcc. cbn [concat_chunks c_u16] in Hcc.
  destruct (varint_write (props_size (PSlice ps))) as [szb|]; [|discriminate Hcc].
  destruct (concat_chunks (flat_map prop_chunks ps)) as [block|]; [|discriminate Hcc].
  rewrite !app_nil_r in Hcc. injection Hcc as <-.
  exists rl, ((szb ++ block) ++ pq_payload r). rewrite <- !app_assoc in *. split; [reflexivity|]. split; [exact Hrl|lia].
Qed.

Lemma u16_be_two : forall v, exists a b, u16_be v = [a; b].
Proof. intros v. Local Transparent u16_be. unfold u16_be. eexists _, _. reflexivity. Local Opaque u16_be. Qed.

(* a QoS 1 / QoS 2 PUBLISH is answered with the PUBACK / PUBREC of its identifier *)
Definition ack_head (q : qos) : N := match q with Q1 => 64 | _ => 80 end.
Lemma broker_reply_publish : forall mode fl rl topic id rest q,
  q <> Q0 -> (fl / 2) mod 4 = qos_n q -> fl / 16 = 3 ->
  varint_write (lenN ((u16_be (lenN topic) ++ topic) ++ u16_be id ++ rest)) = Some rl -> lenN topic < 65536 ->
  broker_reply mode (fl :: rl ++ (u16_be (lenN topic) ++ topic) ++ u16_be id ++ rest) = ack_head q :: [2] ++ u16_be id.
Proof.
  intros mode fl rl topic id rest q Hq0 Hq Ht Hrl Hl. unfold broker_reply.
  rewrite (varint_roundtrip _ _ _ Hrl), Ht. change (3 =? 3) with true. cbv iota. rewrite Hq.
  rewrite <- app_assoc. rewrite (read_u16_be _ _ Hl). rewrite dropN_app_exact.
  destruct (u16_be_two id) as [a [b E]]. rewrite E. cbn [app]. destruct q; [contradiction|reflexivity|reflexivity].
Qed.

Lemma broker_split_one : forall mode f h rl body,
  varint_write (lenN body) = Some rl ->
  broker_split mode (S (S f)) (h :: rl ++ body) [] = (broker_reply mode (h :: rl ++ body), []).
Proof.
  intros mode f h rl body Hrl. cbn [broker_split]. rewrite (varint_roundtrip _ _ _ Hrl).
  destruct (N.ltb_spec (lenN body) (lenN body)) as [L|_]; [lia|].
  assert (Ht : 1 + (lenN (rl ++ body) - lenN body) + lenN body = lenN (h :: rl ++ body)) by (rewrite lenN_cons, lenN_app; lia).
  rewrite Ht. rewrite (dropN_all (h :: rl ++ body)) by lia. rewrite (takeN_all (h :: rl ++ body)) by lia.
  cbn [app]. destruct f; reflexivity.
Qed.

Lemma broker_answers : forall w h rl body reply,
  w_broker w = 1 -> w_txbuf w = [] -> w_last_arrival w <= w_now w -> varint_write (lenN body) = Some rl ->
  broker_reply 1 (h :: rl ++ body) = reply -> reply <> [] ->
  broker_view (broker_feed w (h :: rl ++ body)) = (1, [], w_inq w ++ [(w_now w, reply)], w_now w).
Proof.
  intros w h rl body reply Hb Ht Hla Hrl Hrep Hne. unfold broker_feed. rewrite Hb, Ht. change (1 =? 0) with false. cbv iota. cbn [app].
  assert (Hlen : exists f, S (length (h :: rl ++ body)) = S (S f)) by (cbn [length]; eexists; reflexivity).
  destruct Hlen as [f Hf]. rewrite Hf, (broker_split_one _ f h rl body Hrl), Hrep.
  destruct reply as [|x t]; [contradiction|].
  unfold broker_view. cbn [w_broker w_txbuf w_inq w_last_arrival w_now upd_inq upd_txbuf]. rewrite Hb, (N.max_l _ _ Hla). reflexivity.
Qed.

Lemma abs_single : forall o pid bs st, abs o = [(pid, bs, st)] ->
  exists e, ob_ret o = [e] /\ re_pid e = pid /\ sliceN (re_off e) (re_len e) (ob_buf o) = bs /\ re_st e = st.
Proof.
  intros o pid bs st H. unfold abs in H. destruct (ob_ret o) as [|e [|e2 t]]; cbn [map] in H; try discriminate.
  exists e. split; [reflexivity|]. unfold abs_entry, entry_bytes in H. injection H as H1 H2 H3. repeat split; assumption.
Qed.

Definition sent_entry (e : rentry) : rentry := {| re_pid := re_pid e; re_off := re_off e; re_len := re_len e; re_st := SSent |}.

Lemma single_fresh_step : forall o e, ob_ctl o = [] -> ob_rel o = [] -> ob_ret o = [e] -> re_st e = SWrite 0 ->
  next_step o = Some (StRet (re_pid e) (re_off e) (re_len e) (SWrite 0)).
Proof.
  intros o e Hc Hl Hr Hs. unfold next_step, next_step_pass, orelse, find_ctl, find_rel, find_ret. rewrite Hc, Hl, Hr.
  cbn [find]. rewrite Hs. cbn [matches_priority is_in_progress is_fresh]. change (0 =? 0) with true. cbn [negb]. rewrite Hs. reflexivity.
Qed.

Lemma single_sent_no_step : forall o e, ob_ctl o = [] -> ob_rel o = [] -> ob_ret o = [sent_entry e] -> next_step o = None.
Proof.
  intros o e Hc Hl Hr. unfold next_step, next_step_pass, orelse, find_ctl, find_rel, find_ret. rewrite Hc, Hl, Hr. reflexivity.
Qed.

Lemma single_step_result : forall s e len now, ob_ret (s_ob s) = [e] ->
  let s' := fst (complete_flush (fst (set_written s (FRet (re_pid e)) (0 + len) len)) (FRet (re_pid e)) now) in
  ob_ctl (s_ob s') = ob_ctl (s_ob s) /\ ob_rel (s_ob s') = ob_rel (s_ob s) /\ ob_ret (s_ob s') = [sent_entry e] /\
  ob_buf (s_ob s') = ob_buf (s_ob s) /\ s_rt s' = note_outbound_activity (s_rt s) now /\ s_reader s' = s_reader s.
Proof.
  intros s e len now Hr. cbv zeta. unfold complete_flush, set_written, set_retained_written, flush_retained.
  rewrite Hr. cbn [update_first re_pid]. rewrite N.eqb_refl. cbn [fst set_ob s_ob with_ret ob_ret update_first re_pid].
  rewrite N.eqb_refl. cbn [fst set_rt set_ob s_ob s_rt s_reader with_ret ob_ret ob_ctl ob_rel ob_buf re_pid re_off re_len].
  repeat split.
Qed.

Lemma quiescent_no_step : forall o, ob_ctl o = [] -> ob_rel o = [] -> ob_ret o = [] -> next_step o = None.
Proof. intros o Hc Hl Hr. unfold next_step, next_step_pass, orelse, find_ctl, find_rel, find_ret. rewrite Hc, Hl, Hr. reflexivity. Qed.

Lemma owed_single_fresh : forall o e, ob_ctl o = [] -> ob_rel o = [] -> ob_ret o = [e] -> re_st e = SWrite 0 ->
  owed o = sliceN (re_off e) (re_len e) (ob_buf o).
Proof.
  intros o e Hc Hl Hr Hs. unfold owed, part_of, fresh_of. rewrite Hc, Hl, Hr. unfold Pq, Fq. cbn [map concat app].
  rewrite Hs. cbn [rest_part rest_fresh is_fresh N.eqb]. change (0 =? 0) with true. cbv iota. cbn [app]. rewrite app_nil_r. reflexivity.
Qed.

Set Implicit Arguments.

(* what publish (QoS 1, 2), subscribe and unsubscribe leave when all three queues were empty: the request, unsent, is the one entry *)
Record Enqueued (s s2 : session) (e : rentry) (bs : bytes) : Prop := enqueued_intro {
  enq_ctl : ob_ctl (s_ob s2) = [];
  enq_rel : ob_rel (s_ob s2) = [];
  enq_ret : ob_ret (s_ob s2) = [e];
  enq_st : re_st e = SWrite 0;
  enq_bytes : sliceN (re_off e) (re_len e) (ob_buf (s_ob s2)) = bs;
  enq_pframe : pframe s s2;
  enq_ka : rt_ka_ms (s_rt s2) = rt_ka_ms (s_rt s);
  enq_mps : rt_mps (s_rt s2) = rt_mps (s_rt s);
  enq_reader : s_reader s2 = s_reader s;
  enq_buf : lenN (ob_buf (s_ob s2)) = lenN (ob_buf (s_ob s)) }.

(* A healthy connection without keep-alive to the answering broker, the control queue empty, nothing buffered at the broker:
   `ret` and `rel` are what is in flight, `inq` what the broker has answered.  `Await` adds the reader: empty, room for k bytes. *)
Record Conn (ret : list rentry) (rel : list lentry) (inq : list (N * bytes)) (w : world) : Prop := conn_intro {
  cn_hc : Hc w;
  cn_ctl : ob_ctl (s_ob (w_sess w)) = [];
  cn_rel : ob_rel (s_ob (w_sess w)) = rel;
  cn_ret : ob_ret (s_ob (w_sess w)) = ret;
  cn_ka : rt_ka_ms (s_rt (w_sess w)) = 0;
  cn_np : rt_next_ping (s_rt (w_sess w)) = None;
  cn_pt : rt_ping_timeout (s_rt (w_sess w)) = None;
  cn_broker : w_broker w = 1;
  cn_txbuf : w_txbuf w = [];
  cn_inq : w_inq w = inq;
  cn_la : w_last_arrival w <= w_now w }.
Record Room (k : N) (r : reader) : Prop := room_intro { rm_data : rdata r = []; rm_plen : rplen r = None; rm_cap : k <= rcap r }.
Record Await (ret : list rentry) (rel : list lentry) (inq : list (N * bytes)) (k : N) (w : world) : Prop := await_intro {
  aw_conn : Conn ret rel inq w;
  aw_rd : Room k (rd w) }.

(* what writing `bs` whole at `w` and flushing it leaves besides the queues; the broker answers at once, so the last arrival
   is now *)
Record Sent (w : world) (bs : bytes) (w' : world) : Prop := {
  sn_wire : w_wire w' = w_wire w ++ bs;
  sn_now : w_now w' = w_now w;
  sn_la : w_last_arrival w' = w_now w;
  sn_reader : s_reader (w_sess w') = s_reader (w_sess w);
  sn_rt : s_rt (w_sess w') = note_outbound_activity (s_rt (w_sess w)) (w_now w);
  sn_buf : ob_buf (s_ob (w_sess w')) = ob_buf (s_ob (w_sess w)) }.
Unset Implicit Arguments.

(* `dec` (publish) takes a slot of the send window *)
Lemma retained_on_empty : forall E D dec live s s2 op,
  mid_out E D dec live s s2 (MRetained op) -> Inv s ->
  ob_ctl (s_ob s) = [] -> ob_rel (s_ob s) = [] -> ob_ret (s_ob s) = [] ->
  (forall enc, E (op_pid op) enc -> forall cap off bs, enc cap = SOk off bs -> off + lenN bs <= cap /\ 2 <= lenN bs) ->
  exists enc bs cap off e,
    E (op_pid op) enc /\ enc cap = SOk off bs /\ re_pid e = op_pid op /\ Enqueued s s2 e bs /\ op_pid op < 65536 /\
    s_rt s2 = (if dec then rt_with_quota (s_rt s) (rt_quota (s_rt s) - 1) else s_rt s) /\
    (dec = true -> rt_quota (s_rt s) <> 0).
Proof.
  intros E D dec live s s2 op H I Hc Hl Hr Hfit. remember (MRetained op) as m eqn:Em.
  destruct H as [| | | | |p id enc o1 off len o2 k En He Ee _ Er2 Hd]; try discriminate. injection Em as <-. cbn [op_pid] in *.
  destruct (encode_retain_spec (s_ob s) enc o1 off len id o2 (oi_arena _ (inv_ob _ I)) (Hfit _ He) Ee Er2)
    as [bs [_ [Ab [_ [[cap [off' Hb]] [Hc2 [Hl2 Hlen]]]]]]].
  unfold abs at 2 in Ab. rewrite Hr in Ab. destruct (abs_single _ _ _ _ Ab) as [e [E1 [E2 [E3 E4]]]].
  destruct (next_packet_id_fresh s _ id (inv_ob _ I) (inv_pid _ I) En) as [[_ Hid] _].
  rewrite Hc in Hc2. rewrite Hl in Hl2.
  exists enc, bs, cap, off', e. split; [exact He|]. split; [exact Hb|]. split; [exact E2|].
  split; [|split; [lia|split; [destruct dec; reflexivity|intros Hdt; exact (proj1 (proj2 (Hd Hdt)))]]].
  destruct dec; split; unfold pframe; cbn [s_ob s_rt s_reader set_rt set_ob set_pid rt_with_quota rt_ping_timeout rt_next_ping rt_ka_ms rt_mps];
    rewrite ?Hc; repeat split; first [assumption|reflexivity].
Qed.

Lemma publish_middle_quiescent : forall s r s2 op,
  Inv s -> ob_ctl (s_ob s) = [] -> ob_rel (s_ob s) = [] -> ob_ret (s_ob s) = [] ->
  publish_middle s true r = (s2, MRetained op) ->
  exists bs cap off e,
    enc_publish cap (pub_request r (effective_qos s (pr_qos r)) (op_pid op)) = SOk off bs /\ re_pid e = op_pid op /\
    Enqueued s s2 e bs /\ op_pid op < 65536 /\
    s_rt s2 = rt_with_quota (s_rt s) (rt_quota (s_rt s) - 1) /\ rt_quota (s_rt s) <> 0.
Proof.
  intros s r s2 op I Hc Hl Hr H.
  destruct (retained_on_empty _ _ _ _ _ _ _ (publish_middle_out _ _ _ _ _ H) I Hc Hl Hr)
    as [enc [bs [cap [off [e [[_ ->] [Hb [Epid [Henq [Hid [Hrt Hqu]]]]]]]]]]].
  - intros enc [_ ->]. apply enc_publish_fits.
  - exists bs, cap, off, e. exact (conj Hb (conj Epid (conj Henq (conj Hid (conj Hrt (Hqu eq_refl)))))).
Qed.

Lemma quiet_PQ : forall w, w_script w = [] ->
  rt_next_ping (s_rt (w_sess w)) = None -> rt_ping_timeout (s_rt (w_sess w)) = None -> PQ w.
Proof. intros w Hs Hnp Hpt. split; [exact (proj2 (no_timers_quiet _ _ Hnp Hpt))|apply calm_nil; exact Hs]. Qed.

Lemma conn_Hd : forall ret rel inq w, Conn ret rel inq w -> Hd w.
Proof. intros ret rel inq w H. split; [exact (cn_hc H)|]. exact (quiet_PQ _ (proj1 (cn_hc H)) (cn_np H) (cn_pt H)). Qed.

Lemma Hc_no_timeout : forall w, w_script w = [] -> w_live w = true -> WInv (w_sess w) -> rt_mps (s_rt (w_sess w)) = None ->
  rt_ping_timeout (s_rt (w_sess w)) = None -> lenN (ob_buf (s_ob (w_sess w))) <= BIG -> Fr (s_ob (w_sess w)) -> Hc w.
Proof.
  intros w Hs Hl I Hm Hpt HB HF. refine (conj Hs (conj Hl (conj I (conj Hm (conj _ (conj HB HF)))))).
  intros d E. rewrite Hpt in E. discriminate E.
Qed.

Lemma flush_outbound_idle : forall f w, PQ w -> next_step (s_ob (w_sess w)) = None -> flush_outbound (S f) w = (w, ODone tt).
Proof. intros f w Hq Hn. cbn [flush_outbound]. rewrite (pq_no_ping w Hq), upd_sess_id, Hn. reflexivity. Qed.

Lemma conn_flush_idle : forall f inq w, Conn [] [] inq w -> flush_outbound (S f) w = (w, ODone tt).
Proof.
  intros f inq w H. exact (flush_outbound_idle f w (proj2 (conn_Hd _ _ _ _ H)) (quiescent_no_step _ (cn_ctl H) (cn_rel H) (cn_ret H))).
Qed.

Lemma await_quiet : forall k w,
  w_script w = [] -> w_live w = true -> WInv (w_sess w) ->
  ob_ctl (s_ob (w_sess w)) = [] -> ob_rel (s_ob (w_sess w)) = [] -> ob_ret (s_ob (w_sess w)) = [] ->
  lenN (ob_buf (s_ob (w_sess w))) <= BIG -> rt_mps (s_rt (w_sess w)) = None ->
  rt_ka_ms (s_rt (w_sess w)) = 0 -> rt_next_ping (s_rt (w_sess w)) = None -> rt_ping_timeout (s_rt (w_sess w)) = None ->
  w_broker w = 1 -> w_txbuf w = [] -> w_inq w = [] -> w_last_arrival w <= w_now w ->
  rdata (rd w) = [] -> rplen (rd w) = None -> k <= rcap (rd w) -> Await [] [] [] k w.
Proof.
  intros k w Hs Hl I Ec El Er HB Hm Hka Hnp Hpt Hbr Htx Hiq Hla Hrd Hrp Hcap.
  split; split; try assumption.
  apply Hc_no_timeout; try assumption. unfold Fr. rewrite Ec, El, Er. repeat split; constructor.
Qed.

Lemma note_outbound_activity_ka0 : forall rt now, rt_ka_ms rt = 0 ->
  note_outbound_activity rt now = rt_with_timers rt None (rt_ping_timeout rt).
Proof. intros rt now H. unfold note_outbound_activity, keepalive_send_interval. rewrite H. reflexivity. Qed.

Lemma note_outbound_activity_idle : forall rt now,
  rt_ka_ms rt = 0 -> rt_next_ping rt = None -> rt_ping_timeout rt = None -> note_outbound_activity rt now = rt.
Proof.
  intros rt now Hka Hnp Hpt. rewrite (note_outbound_activity_ka0 _ _ Hka). destruct rt. cbn in Hnp, Hpt. subst. reflexivity.
Qed.

(* `ret'` and `rel'` are the queues with the one unsent entry marked sent, as the `complete_flush` hypothesis says *)
Lemma fresh_entry_sent : forall st w bs len h rl body reply ret' rel',
  Hc w -> PQ w -> ob_ctl (s_ob (w_sess w)) = [] ->
  rt_ka_ms (s_rt (w_sess w)) = 0 -> rt_ping_timeout (s_rt (w_sess w)) = None ->
  w_broker w = 1 -> w_txbuf w = [] -> w_last_arrival w <= w_now w ->
  next_step (s_ob (w_sess w)) = Some st -> step_state st = SWrite 0 ->
  prepare_step (w_sess w) st = PWrite (pkt_of st) bs 0 len -> owed (s_ob (w_sess w)) = bs ->
  bs = h :: rl ++ body -> varint_write (lenN body) = Some rl -> broker_reply 1 bs = reply -> reply <> [] ->
  (forall len', let s' := fst (complete_flush (fst (set_written (w_sess w) (pkt_of st) (0 + len') len')) (pkt_of st) (w_now w)) in
     ob_ctl (s_ob s') = ob_ctl (s_ob (w_sess w)) /\ ob_rel (s_ob s') = rel' /\ ob_ret (s_ob s') = ret' /\
     ob_buf (s_ob s') = ob_buf (s_ob (w_sess w)) /\ s_rt s' = note_outbound_activity (s_rt (w_sess w)) (w_now w) /\
     s_reader s' = s_reader (w_sess w)) ->
  (forall o, ob_ctl o = [] -> ob_rel o = rel' -> ob_ret o = ret' -> next_step o = None) ->
  exists w',
    perform_outbound_step st (w_now w) w = (w', ODone true) /\ next_step (s_ob (w_sess w')) = None /\ PQ w' /\
    Conn ret' rel' (w_inq w ++ [(w_now w, reply)]) w' /\ Sent w bs w'.
Proof.
  intros st w bs len h rl body reply ret' rel' Hcw Hq Ec Hka Hpt Hbr Htx Hla En Hst Hprep Ho Elay Hrl Hrep Hne Hsent Hnone.
  pose proof Hcw as [_ [_ [I _]]].
  destruct (healthy_perform_core st w Hcw En) as [w' [E [Hc' [_ [N' [X V]]]]]].
  destruct (X Hst) as [len' S']. specialize (Hsent len'). cbv zeta in Hsent. rewrite <- S', Ec in Hsent.
  destruct Hsent as [Ec' [El' [Er' [Eb' [Ert' Erd']]]]].
  pose proof (Hnone _ Ec' El' Er') as En'.
  destruct (step_prefix _ _ _ _ _ I En E Logic.I) as [P [Hw' Ho']]. rewrite (owed_no_step _ En'), app_nil_r, Ho in Ho'. subst P.
  pose proof (V bs len Hprep) as Vw.
  rewrite Elay, (broker_answers w h rl body reply Hbr Htx Hla Hrl ltac:(rewrite <- Elay; exact Hrep) Hne) in Vw.
  unfold broker_view in Vw. injection Vw as Vb Vt Vi Vl.
  exists w'. split; [exact E|]. split; [exact En'|]. split; [exact (proj1 (step_pq _ _ _ _ Hq E Logic.I))|].
  split; [|repeat split; assumption].
  apply conn_intro; try assumption; rewrite ?Ert', ?(note_outbound_activity_ka0 _ _ Hka); try assumption; try reflexivity.
  rewrite Vl, N'. apply N.le_refl.
Qed.

Lemma retained_entry_sent : forall f w e bs h rl body reply,
  Hc w -> PQ w ->
  ob_ctl (s_ob (w_sess w)) = [] -> ob_rel (s_ob (w_sess w)) = [] -> ob_ret (s_ob (w_sess w)) = [e] -> re_st e = SWrite 0 ->
  sliceN (re_off e) (re_len e) (ob_buf (s_ob (w_sess w))) = bs ->
  bs = h :: rl ++ body -> varint_write (lenN body) = Some rl -> broker_reply 1 bs = reply -> reply <> [] ->
  rt_ka_ms (s_rt (w_sess w)) = 0 -> rt_ping_timeout (s_rt (w_sess w)) = None ->
  w_broker w = 1 -> w_txbuf w = [] -> w_last_arrival w <= w_now w ->
  exists w',
    flush_outbound (S (S f)) w = (w', ODone tt) /\
    Conn [sent_entry e] [] (w_inq w ++ [(w_now w, reply)]) w' /\ Sent w bs w'.
Proof.
  intros f w e bs h rl body reply Hcw Hq Ec El Er Est Ebs Elay Hrl Hrep Hne Hka Hpt Hbr Htx Hla.
  pose proof Hcw as [_ [_ [_ [Hmps _]]]].
  set (st := StRet (re_pid e) (re_off e) (re_len e) (SWrite 0)).
  pose proof (single_fresh_step _ e Ec El Er Est) as En. fold st in En.
  destruct (fresh_entry_sent st w bs (re_len e) h rl body reply [sent_entry e] (ob_rel (s_ob (w_sess w)))
              Hcw Hq Ec Hka Hpt Hbr Htx Hla En eq_refl) as [w' [E [En' [Q' A']]]]; try assumption.
  - cbn [st prepare_step pkt_of]. rewrite Hmps. cbn [too_large]. unfold retained_packet. rewrite Ebs. reflexivity.
  - rewrite (owed_single_fresh _ e Ec El Er Est). exact Ebs.
  - intros len'. exact (single_step_result (w_sess w) e len' (w_now w) Er).
  - intros o Ho Hl Hr. rewrite El in Hl. exact (single_sent_no_step o e Ho Hl Hr).
  - rewrite El in A'. exists w'. split; [|exact A'].
    cbn [flush_outbound]. rewrite (pq_no_ping w Hq), upd_sess_id, En, E. exact (flush_outbound_idle f w' Q' En').
Qed.

Lemma request_sent : forall f w s2 e bs h rl body reply,
  Conn [] [] [] w -> WInv s2 -> Enqueued (w_sess w) s2 e bs ->
  bs = h :: rl ++ body -> varint_write (lenN body) = Some rl -> broker_reply 1 bs = reply -> reply <> [] ->
  exists w1,
    flush_outbound (S (S f)) (upd_sess w s2) = (w1, ODone tt) /\ Conn [sent_entry e] [] [(w_now w, reply)] w1 /\
    Sent (upd_sess w s2) bs w1 /\ rd w1 = rd w.
Proof.
  intros f w s2 e bs h rl body reply Hcn I2 Q Elay Hrl Hrep Hne.
  pose proof (cn_hc Hcn) as [Hs [Hl [_ [Hmps [_ [HB _]]]]]].
  set (w2 := upd_sess w s2).
  assert (Hpt2 : rt_ping_timeout (s_rt s2) = None) by (rewrite (proj1 (enq_pframe Q)); exact (cn_pt Hcn)).
  assert (Hc2 : Hc w2).
  { apply Hc_no_timeout; cbn [w2 w_script w_live w_sess upd_sess]; try assumption.
    - rewrite (enq_mps Q). exact Hmps.
    - rewrite (enq_buf Q). exact HB.
    - unfold Fr. rewrite (enq_ctl Q), (enq_rel Q), (enq_ret Q). repeat split; try constructor; [rewrite (enq_st Q); reflexivity|constructor]. }
  assert (Q2 : PQ w2).
  { apply quiet_PQ; cbn [w2 w_script w_sess upd_sess]; [exact Hs| |exact Hpt2]. rewrite (proj1 (proj2 (enq_pframe Q))). exact (cn_np Hcn). }
  destruct (retained_entry_sent f w2 e bs h rl body reply Hc2 Q2 (enq_ctl Q) (enq_rel Q) (enq_ret Q) (enq_st Q) (enq_bytes Q) Elay Hrl Hrep Hne
              (eq_trans (enq_ka Q) (cn_ka Hcn)) Hpt2 (cn_broker Hcn) (cn_txbuf Hcn) (cn_la Hcn))
    as [w1 [E1 [Hcn1 S1]]].
  cbn [w2 w_inq upd_sess] in Hcn1. rewrite (cn_inq Hcn) in Hcn1.
  exists w1. split; [exact E1|]. split; [exact Hcn1|]. split; [exact S1|]. unfold rd. rewrite (sn_reader S1). exact (enq_reader Q).
Qed.

Lemma publish_sent : forall w r s2 op ps q,
  Conn [] [] [] w -> publish_middle (w_sess w) true r = (s2, MRetained op) ->
  effective_qos (w_sess w) (pr_qos r) = q -> q <> Q0 -> pr_props r = PSlice ps ->
  exists w1 bs cap off e,
    op_publish FUEL r w = (w1, ODone (Some op)) /\ enc_publish cap (pub_request r q (op_pid op)) = SOk off bs /\
    Conn [sent_entry e] [] [(w_now w, ack_head q :: [2] ++ u16_be (op_pid op))] w1 /\ Sent (upd_sess w s2) bs w1 /\
    rd w1 = rd w /\ re_pid e = op_pid op /\ op_pid op < 65536 /\
    lenN (ob_buf (s_ob s2)) = lenN (ob_buf (s_ob (w_sess w))).
Proof.
  intros w r s2 op ps q Hcn Hm Hq1 Hq0 Hps.
  pose proof (cn_hc Hcn) as [_ [Hl [I _]]].
  destruct (publish_middle_quiescent _ _ _ _ (proj1 I) (cn_ctl Hcn) (cn_rel Hcn) (cn_ret Hcn) Hm) as [bs [cap [off [e [Hb [Epid [Henq [Hid _]]]]]]]].
  rewrite Hq1 in Hb.
  destruct (publish_layout cap _ off bs ps (op_pid op) Hb Hps eq_refl) as [rl [rest [Elay [Hrl Htl]]]].
  cbn [pub_request pq_topic] in Elay, Hrl, Htl.
  destruct (publish_hdr_arith q (pr_retain r) false) as [A1 [A2 _]]. cbv zeta in A1, A2.
  assert (Hrep : broker_reply 1 bs = ack_head q :: [2] ++ u16_be (op_pid op)).
  { rewrite Elay. apply broker_reply_publish; [exact Hq0|exact A2|exact A1|exact Hrl|exact Htl]. }
  assert (I2 : WInv s2).
  { replace s2 with (fst (publish_middle (w_sess w) true r)) by now rewrite Hm. eapply WInv_step; [apply SS_publish|exact I]. }
  destruct FUEL_big as [f Hf].
  destruct (request_sent (S (S (S f))) w s2 e bs _ rl _ _ Hcn I2 Henq Elay Hrl Hrep ltac:(discriminate))
    as [w1 [E1 [Hcn1 [S1 R1]]]].
  exists w1, bs, cap, off, e. split.
  { rewrite Hf. clear Hf. unfold op_publish. rewrite Hl. cbn [negb].
    rewrite (conn_flush_idle _ _ _ Hcn). cbn [bindu]. rewrite Hl, Hm.
    cbn [finish_mid]. rewrite E1. reflexivity. }
  repeat (split; [assumption|]). exact (enq_buf Henq).
Qed.

Theorem publish_is_sent_and_answered_rt : forall w r s2 op ps q,
  Hc w ->
  ob_ctl (s_ob (w_sess w)) = [] -> ob_rel (s_ob (w_sess w)) = [] -> ob_ret (s_ob (w_sess w)) = [] ->
  rt_ka_ms (s_rt (w_sess w)) = 0 -> rt_next_ping (s_rt (w_sess w)) = None -> rt_ping_timeout (s_rt (w_sess w)) = None ->
  w_broker w = 1 -> w_txbuf w = [] -> w_inq w = [] -> w_last_arrival w <= w_now w ->
  publish_middle (w_sess w) true r = (s2, MRetained op) ->
  effective_qos (w_sess w) (pr_qos r) = q -> q <> Q0 -> pr_props r = PSlice ps -> op_pid op < 65536 ->
  exists w1 bs cap off e,
    op_publish FUEL r w = (w1, ODone (Some op)) /\
    enc_publish cap (pub_request r q (op_pid op)) = SOk off bs /\
    w_wire w1 = w_wire w ++ bs /\
    w_inq w1 = [(w_now w, ack_head q :: [2] ++ u16_be (op_pid op))] /\
    Hc w1 /\ s_reader (w_sess w1) = s_reader (w_sess w) /\ w_now w1 = w_now w /\
    w_broker w1 = 1 /\ w_txbuf w1 = [] /\ w_last_arrival w1 = w_now w /\ rt_ka_ms (s_rt (w_sess w1)) = 0 /\
    rt_next_ping (s_rt (w_sess w1)) = None /\ rt_ping_timeout (s_rt (w_sess w1)) = None /\
    ob_ctl (s_ob (w_sess w1)) = [] /\ ob_rel (s_ob (w_sess w1)) = [] /\
    ob_ret (s_ob (w_sess w1)) = [sent_entry e] /\ re_pid e = op_pid op /\
    s_rt (w_sess w1) = note_outbound_activity (s_rt s2) (w_now w) /\ ob_buf (s_ob (w_sess w1)) = ob_buf (s_ob s2).
Proof.
  intros w r s2 op ps q Hcw Ec El Er Hka Hnp Hpt Hbr Htx Hiq Hla Hm Hq1 Hq0 Hps Hid.
  destruct (publish_sent w r s2 op ps q (conn_intro Hcw Ec El Er Hka Hnp Hpt Hbr Htx Hiq Hla) Hm Hq1 Hq0 Hps)
    as [w1 [bs [cap [off [e [E1 [Hb [Hcn1 [[Hw1 N1 La1 _ Rt1 Bu1] [R1 [Epid _]]]]]]]]]]].
  destruct Hcn1 as [Hc1 Ec1 El1 Er1 Ka1 Np1 Pt1 Br1 Tx1 Hi1 _].
  exists w1, bs, cap, off, e. split; [exact E1|]. split; [exact Hb|]. split; [exact Hw1|]. split; [exact Hi1|]. split; [exact Hc1|].
  split; [exact R1|]. repeat split; assumption.
Qed.

Theorem publish_is_sent_and_answered : forall w r s2 op ps q,
  Hc w ->
  ob_ctl (s_ob (w_sess w)) = [] -> ob_rel (s_ob (w_sess w)) = [] -> ob_ret (s_ob (w_sess w)) = [] ->
  rt_ka_ms (s_rt (w_sess w)) = 0 -> rt_next_ping (s_rt (w_sess w)) = None -> rt_ping_timeout (s_rt (w_sess w)) = None ->
  w_broker w = 1 -> w_txbuf w = [] -> w_inq w = [] -> w_last_arrival w <= w_now w ->
  publish_middle (w_sess w) true r = (s2, MRetained op) ->
  effective_qos (w_sess w) (pr_qos r) = q -> q <> Q0 -> pr_props r = PSlice ps -> op_pid op < 65536 ->
  exists w1 bs cap off e,
    op_publish FUEL r w = (w1, ODone (Some op)) /\
    enc_publish cap (pub_request r q (op_pid op)) = SOk off bs /\
    w_wire w1 = w_wire w ++ bs /\
    w_inq w1 = [(w_now w, ack_head q :: [2] ++ u16_be (op_pid op))] /\
    Hc w1 /\ s_reader (w_sess w1) = s_reader (w_sess w) /\ w_now w1 = w_now w /\
    w_broker w1 = 1 /\ w_txbuf w1 = [] /\ w_last_arrival w1 = w_now w /\ rt_ka_ms (s_rt (w_sess w1)) = 0 /\
    rt_next_ping (s_rt (w_sess w1)) = None /\ rt_ping_timeout (s_rt (w_sess w1)) = None /\
    ob_ctl (s_ob (w_sess w1)) = [] /\ ob_rel (s_ob (w_sess w1)) = [] /\
    ob_ret (s_ob (w_sess w1)) = [sent_entry e] /\ re_pid e = op_pid op.
Proof.
  intros w r s2 op ps q Hcw Ec El Er Hka Hnp Hpt Hbr Htx Hiq Hla Hm Hq1 Hq0 Hps Hid.
  destruct (publish_is_sent_and_answered_rt w r s2 op ps q Hcw Ec El Er Hka Hnp Hpt Hbr Htx Hiq Hla Hm Hq1 Hq0 Hps Hid)
    as [w1 [bs [cap [off [e H]]]]].
  exists w1, bs, cap, off, e. tauto.
Qed.

Lemma await_le : forall ret rel inq k k' w, k' <= k -> Await ret rel inq k w -> Await ret rel inq k' w.
Proof.
  intros ret rel inq k k' w Hk [Hcn R]. exact (await_intro Hcn (room_intro _ (rm_data R) (rm_plen R) (N.le_trans _ _ _ Hk (rm_cap R)))).
Qed.

Lemma await_done : forall k w, Await [] [] [] k w ->
  w_live w = true /\ w_inq w = [] /\
  ob_ctl (s_ob (w_sess w)) = [] /\ ob_rel (s_ob (w_sess w)) = [] /\ ob_ret (s_ob (w_sess w)) = [] /\
  next_step (s_ob (w_sess w)) = None.
Proof.
  intros k w [H _].
  exact (conj (proj1 (proj2 (cn_hc H))) (conj (cn_inq H) (conj (cn_ctl H) (conj (cn_rel H) (conj (cn_ret H)
           (quiescent_no_step _ (cn_ctl H) (cn_rel H) (cn_ret H))))))).
Qed.

(* `d`: the packet is a message for the application, which ends the poll as well *)
Lemma poll_answer : forall k w ret rel t h rl body p s4 d,
  Await ret rel [(t, h :: rl ++ body)] k w -> t <= w_now w -> next_step (s_ob (w_sess w)) = None ->
  varint_write (lenN body) = Some rl -> lenN (h :: rl ++ body) <= k -> lenN (h :: rl ++ body) <= 29000 ->
  from_buffer (h :: rl ++ body) = Some p ->
  handle_packet (set_reader (w_sess w) (reader_reset (rd w))) p = (s4, HOk d) ->
  ob_ctl (s_ob s4) = [] -> ob_rel (s_ob s4) = [] -> ob_ret (s_ob s4) = [] ->
  lenN (ob_buf (s_ob s4)) <= BIG -> rt_mps (s_rt s4) = None ->
  exists w', op_poll FUEL w = (w', ODone (if d then Some p else None)) /\ w_sess w' = s4 /\ w_wire w' = w_wire w /\
    w_now w' = w_now w /\ Await [] [] [] k w'.
Proof.
  intros k w ret rel t h rl body p s4 d [[Hcw Ec El Er Hka Hnp Hpt Hbr Htx Hiq Hla] [Hrd Hrp Hcap]]
         Ht Hn Hrl Hk H29 Hdec Hh Ec4 El4 Er4 HB4 Hmps4.
  pose proof Hcw as [Hs [Hl [I _]]].
  set (s3 := set_reader (w_sess w) (reader_reset (rd w))) in *.
  pose proof (handle_packet_reader s3 p) as Hr4. rewrite Hh in Hr4. cbn [fst s3 set_reader s_reader] in Hr4.
  pose proof (handle_packet_pt_none s3 p Hpt) as Pt4. rewrite Hh in Pt4. cbn [fst] in Pt4.
  pose proof (KeepAlive.tframe_handle_packet s3 p) as [Ka4 Np4]. rewrite Hh in Ka4, Np4. cbn [fst s3 set_reader s_rt] in Ka4, Np4.
  rewrite Hnp in Np4. rewrite Hka in Ka4.
  destruct (no_timers_quiet (w_sess w) (w_now w) Hnp Hpt) as [Hto Hq]. destruct (no_timers_quiet s4 (w_now w) Np4 Pt4) as [Hto4 Hq4].
  destruct (poll_arrived w h rl body t p s4 d Hrl) as [w' [E [S' [Q' [C' [N' [L' [W' [B' [T' A']]]]]]]]]]; try assumption;
    [exact (N.le_trans _ _ _ Hk Hcap)|intros _; split; [apply quiescent_no_step; assumption|split; assumption]|].
  exists w'. split; [exact E|]. split; [exact S'|]. split; [exact W'|]. split; [exact N'|].
  apply await_quiet; unfold rd; rewrite ?S', ?Hr4, ?B', ?T', ?A', ?N'; try assumption; try reflexivity.
  replace s4 with (fst (handle_packet s3 p)) by (rewrite Hh; reflexivity).
  eapply WInv_step; [apply SS_packet|]. eapply WInv_step; [apply SS_reader|exact I].
Qed.

Lemma handle_puback_single : forall s e pid, ob_ret (s_ob s) = [sent_entry e] -> re_pid e = pid ->
  handle_packet s (RPubAck pid 0) =
    (set_rt (set_ob s (compact {| ob_buf := ob_buf (s_ob s); ob_used := ob_used (s_ob s); ob_ctl := ob_ctl (s_ob s); ob_ret := []; ob_rel := ob_rel (s_ob s) |}))
            (quota_inc (s_rt s)), HOk false).
Proof.
  intros s e pid Er Epid. cbn [handle_packet]. unfold ack_packet. rewrite Er.
  cbn [remove_first_ret sent_entry re_pid]. rewrite Epid, N.eqb_refl. cbn [negb]. reflexivity.
Qed.

(* `s4` is what the session makes of the answer p while the request is its only entry in flight: the entry goes, and with it
   everything the arena held. *)
Lemma acked_exchange : forall f k w s2 e bs h rl body hd rl' body' p (s4 : session -> session),
  Await [] [] [] k w -> WInv s2 -> Enqueued (w_sess w) s2 e bs ->
  bs = h :: rl ++ body -> varint_write (lenN body) = Some rl ->
  broker_reply 1 bs = hd :: rl' ++ body' -> varint_write (lenN body') = Some rl' ->
  lenN (hd :: rl' ++ body') <= k -> lenN (hd :: rl' ++ body') <= 29000 ->
  from_buffer (hd :: rl' ++ body') = Some p ->
  (forall s, ob_ret (s_ob s) = [sent_entry e] -> handle_packet s p = (s4 s, HOk false)) ->
  (forall s, s_ob (s4 s) = compact {| ob_buf := ob_buf (s_ob s); ob_used := ob_used (s_ob s); ob_ctl := ob_ctl (s_ob s);
                                      ob_ret := []; ob_rel := ob_rel (s_ob s) |} /\ rt_mps (s_rt (s4 s)) = rt_mps (s_rt s)) ->
  exists w1 w2,
    flush_outbound (S (S f)) (upd_sess w s2) = (w1, ODone tt) /\
    Await [sent_entry e] [] [(w_now w, hd :: rl' ++ body')] k w1 /\ Sent (upd_sess w s2) bs w1 /\
    op_poll FUEL w1 = (w2, ODone None) /\ w_wire w2 = w_wire w1 /\ w_now w2 = w_now w /\
    w_sess w2 = s4 (set_reader (w_sess w1) (reader_reset (rd w1))) /\ Await [] [] [] k w2.
Proof.
  intros f k w s2 e bs h rl body hd rl' body' p s4 A0 I2 Henq Elay Hrl Hrep Hrl' Hk H29 Hdec Hh Hs4.
  destruct (request_sent f w s2 e bs h rl body _ (aw_conn A0) I2 Henq Elay Hrl Hrep ltac:(discriminate))
    as [w1 [E1 [Hcn1 [S1 R1]]]].
  pose proof (sn_now S1) as N1.
  assert (A1 : Await [sent_entry e] [] [(w_now w, hd :: rl' ++ body')] k w1)
    by (split; [exact Hcn1|rewrite R1; exact (aw_rd A0)]).
  pose proof (cn_hc Hcn1) as [_ [_ [_ [Mps1 [_ [HB1 _]]]]]].
  set (s3 := set_reader (w_sess w1) (reader_reset (rd w1))).
  destruct (Hs4 s3) as [Ob4 Mp4].
  assert (Eo4 : s_ob (s4 s3) = {| ob_buf := ob_buf (s_ob (w_sess w1)); ob_used := 0; ob_ctl := []; ob_ret := []; ob_rel := [] |})
    by (rewrite Ob4; cbn [s3 set_reader s_ob]; rewrite (cn_ctl Hcn1), (cn_rel Hcn1); reflexivity).
  destruct (poll_answer k w1 _ _ _ hd rl' body' p (s4 s3) false A1 ltac:(rewrite N1; apply N.le_refl)
              (single_sent_no_step _ e (cn_ctl Hcn1) (cn_rel Hcn1) (cn_ret Hcn1)) Hrl' Hk H29 Hdec (Hh s3 (cn_ret Hcn1)))
    as [w2 [E2 [S2 [W2 [N2 A2]]]]]; try (rewrite Eo4; reflexivity).
  - rewrite Eo4. exact HB1.
  - rewrite Mp4. exact Mps1.
  - exists w1, w2. repeat (split; [assumption|]). split; [rewrite N2; exact N1|]. split; [exact S2|exact A2].
Qed.

Lemma qos1_exchange : forall k w r s2 op ps,
  Await [] [] [] k w -> 4 <= k ->
  publish_middle (w_sess w) true r = (s2, MRetained op) ->
  effective_qos (w_sess w) (pr_qos r) = Q1 -> pr_props r = PSlice ps ->
  exists w1 w2 bs cap off,
    op_publish FUEL r w = (w1, ODone (Some op)) /\
    enc_publish cap (pub_request r Q1 (op_pid op)) = SOk off bs /\ w_wire w1 = w_wire w ++ bs /\
    op_poll FUEL w1 = (w2, ODone None) /\ w_wire w2 = w_wire w1 /\ w_now w2 = w_now w /\
    s_rt (w_sess w2) = quota_inc (s_rt (w_sess w1)) /\ s_rt (w_sess w1) = note_outbound_activity (s_rt s2) (w_now w) /\
    ob_cap (s_ob (w_sess w2)) = ob_cap (s_ob (w_sess w)) /\ Await [] [] [] k w2.
Proof.
  intros k w r s2 op ps A0 Hk Hm Hq1 Hps.
  destruct (publish_sent w r s2 op ps Q1 (aw_conn A0) Hm Hq1 ltac:(discriminate) Hps)
    as [w1 [bs [cap [off [e [E1 [Hb [Hcn1 [S1 [R1 [Epid [Hid Hlen2]]]]]]]]]]]]. pose proof (sn_now S1) as N1.
  pose proof (cn_hc Hcn1) as [_ [_ [_ [Mps1 [_ [HB1 _]]]]]].
  assert (A1 : Await [sent_entry e] [] [(w_now w, 64 :: [2] ++ u16_be (op_pid op))] k w1)
    by (split; [exact Hcn1|rewrite R1; exact (aw_rd A0)]).
  destruct (poll_answer k w1 _ _ _ 64 [2] (u16_be (op_pid op)) _ _ false A1 ltac:(rewrite N1; apply N.le_refl)
              (single_sent_no_step _ e (cn_ctl Hcn1) (cn_rel Hcn1) (cn_ret Hcn1)) ltac:(rewrite lenN_u16; reflexivity)
              ltac:(rewrite lenN_ack4; exact Hk) ltac:(rewrite lenN_ack4; discriminate)
              (from_buffer_ack4 64 RPubAck _ de_body_puback Hid)
              (handle_puback_single (set_reader (w_sess w1) (reader_reset (rd w1))) e (op_pid op) (cn_ret Hcn1) Epid) (cn_ctl Hcn1) (cn_rel Hcn1) eq_refl HB1 Mps1)
    as [w2 [E2 [S2 [W2 [N2 A2]]]]].
  exists w1, w2, bs, cap, off. split; [exact E1|]. split; [exact Hb|]. split; [exact (sn_wire S1)|]. split; [exact E2|].
  split; [exact W2|]. split; [rewrite N2; exact N1|]. rewrite S2. split; [reflexivity|]. split; [exact (sn_rt S1)|].
  split; [unfold ob_cap; cbn [set_rt set_ob set_reader s_ob compact compact_go ob_buf]; rewrite (sn_buf S1); exact Hlen2|exact A2].
Qed.

Theorem qos1_exchange_completes : forall w r s2 op ps,
  Hc w ->
  ob_ctl (s_ob (w_sess w)) = [] -> ob_rel (s_ob (w_sess w)) = [] -> ob_ret (s_ob (w_sess w)) = [] ->
  rt_ka_ms (s_rt (w_sess w)) = 0 -> rt_next_ping (s_rt (w_sess w)) = None -> rt_ping_timeout (s_rt (w_sess w)) = None ->
  w_broker w = 1 -> w_txbuf w = [] -> w_inq w = [] -> w_last_arrival w <= w_now w ->
  rdata (rd w) = [] -> rplen (rd w) = None -> 4 <= rcap (rd w) ->
  publish_middle (w_sess w) true r = (s2, MRetained op) ->
  effective_qos (w_sess w) (pr_qos r) = Q1 -> pr_props r = PSlice ps -> op_pid op < 65536 ->
  exists w1 w2 bs cap off,
    op_publish FUEL r w = (w1, ODone (Some op)) /\
    enc_publish cap (pub_request r Q1 (op_pid op)) = SOk off bs /\ w_wire w1 = w_wire w ++ bs /\
    op_poll FUEL w1 = (w2, ODone None) /\ w_live w2 = true /\ w_inq w2 = [] /\
    ob_ctl (s_ob (w_sess w2)) = [] /\ ob_rel (s_ob (w_sess w2)) = [] /\ ob_ret (s_ob (w_sess w2)) = [] /\
    next_step (s_ob (w_sess w2)) = None /\
    rt_quota (s_rt (w_sess w2)) = N.min (N.min (rt_quota (s_rt (w_sess w1)) + 1) 65535) (rt_maxquota (s_rt (w_sess w1))).
Proof.
  intros w r s2 op ps Hcw Ec El Er Hka Hnp Hpt Hbr Htx Hiq Hla Hrd Hrp Hcap Hm Hq1 Hps Hid.
  destruct (qos1_exchange 4 w r s2 op ps (await_intro (conn_intro Hcw Ec El Er Hka Hnp Hpt Hbr Htx Hiq Hla) (room_intro _ Hrd Hrp Hcap))
              (N.le_refl 4) Hm Hq1 Hps)
    as [w1 [w2 [bs [cap [off [E1 [Hb [Hw1 [E2 [_ [_ [S2 [_ [_ A2]]]]]]]]]]]]]].
  destruct (await_done _ _ A2) as [L2 [Hi2 [Ec2 [El2 [Er2 En2]]]]].
  exists w1, w2, bs, cap, off. repeat (split; [assumption|]). rewrite S2. reflexivity.
Qed.

(* non-vacuity: a fresh connection to the answering broker *)
Definition ex_b1 : world :=
  run_case {| c_cfg := ex_cfgh; c_prog := [ASetBroker 2; AConnect []; ASetBroker 1]; c_script := [] |}.
Definition ex_op1 : op := {| op_kind := 0; op_pid := 1; op_gen := 1 |}.

Example exchange_example :
  snd (publish_middle (w_sess ex_b1) true ex_pub) = MRetained ex_op1 /\
  snd (op_publish FUEL ex_pub ex_b1) = ODone (Some ex_op1) /\
  w_wire (fst (op_publish FUEL ex_pub ex_b1)) = w_wire ex_b1 ++ [50; 9; 0; 1; 116; 0; 1; 0; 1; 2; 3] /\
  w_inq (fst (op_publish FUEL ex_pub ex_b1)) = [(0, [64; 2; 0; 1])] /\
  snd (op_poll FUEL (fst (op_publish FUEL ex_pub ex_b1))) = ODone None /\
  ob_ret (s_ob (w_sess (fst (op_poll FUEL (fst (op_publish FUEL ex_pub ex_b1)))))) = [].
Proof. vm_compute. repeat split. Qed.

Example exchange_hyps_met :
  Hc ex_b1 /\
  ob_ctl (s_ob (w_sess ex_b1)) = [] /\ ob_rel (s_ob (w_sess ex_b1)) = [] /\ ob_ret (s_ob (w_sess ex_b1)) = [] /\
  rt_ka_ms (s_rt (w_sess ex_b1)) = 0 /\ rt_next_ping (s_rt (w_sess ex_b1)) = None /\ rt_ping_timeout (s_rt (w_sess ex_b1)) = None /\
  w_broker ex_b1 = 1 /\ w_txbuf ex_b1 = [] /\ w_inq ex_b1 = [] /\ w_last_arrival ex_b1 <= w_now ex_b1 /\
  rdata (rd ex_b1) = [] /\ rplen (rd ex_b1) = None /\ 4 <= rcap (rd ex_b1) /\
  publish_middle (w_sess ex_b1) true ex_pub = (fst (publish_middle (w_sess ex_b1) true ex_pub), MRetained ex_op1) /\
  effective_qos (w_sess ex_b1) (pr_qos ex_pub) = Q1 /\ pr_props ex_pub = PSlice [] /\ op_pid ex_op1 < 65536.
Proof.
  split.
  - apply Hc_no_timeout;
      [vm_compute; reflexivity|vm_compute; reflexivity|unfold ex_b1; apply (proj1 (run_case_good _))|vm_compute; reflexivity
      |vm_compute; reflexivity|vm_compute; intros X; discriminate X|vm_compute; repeat constructor].
  - vm_compute. repeat split; try reflexivity; intros X; discriminate X.
Qed.
