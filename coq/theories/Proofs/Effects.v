(* Effects.v — what the synchronous blocks of Core.v can do to a session, as inversion lemmas.
   `handle_packet`, `publish_middle`, `enqueue_middle` and `connack_process` branch many ways, but the session they
   return has one of a few shapes: a control packet queued, a retained entry acknowledged (with or without the
   quota returned, with or without a PUBREL queued), a packet encoded behind the retained ones and retained.  A
   closure proof goes by cases on these shapes; the errors the same blocks can end in are classified in Shapes.v. *)
From Coq Require Import List NArith.
From Minimq Require Import Bytes Props Ser De Arena Core.
Import ListNotations.
Local Open Scope N_scope.

Lemma queue_control_inv : forall o a o', queue_control o a = Some o' ->
  o' = with_ctl o (ob_ctl o ++ [{| ce_act := a; ce_st := SWrite 0 |}]) /\ glen (ob_ctl o) < MAX_PENDING_CONTROL.
Proof.
  intros o a o' H. unfold queue_control in H. destruct (N.leb_spec MAX_PENDING_CONTROL (glen (ob_ctl o))); [discriminate|].
  injection H as <-. split; [reflexivity|assumption].
Qed.

Lemma queue_release_inv : forall o pid rc o', queue_release o pid rc = Some o' ->
  o' = with_rel o (ob_rel o ++ [{| le_pid := pid; le_rc := rc; le_st := SWrite 0 |}]) /\ glen (ob_rel o) < MAX_PENDING_RELEASE.
Proof.
  intros o pid rc o' H. unfold queue_release in H. destruct (N.leb_spec MAX_PENDING_RELEASE (glen (ob_rel o))); [discriminate|].
  injection H as <-. split; [reflexivity|assumption].
Qed.

Lemma retain_packet_inv : forall o pid off len o', retain_packet o pid off len = Some o' ->
  o' = {| ob_buf := ob_buf o; ob_used := N.max (ob_used o) (off + len); ob_ctl := ob_ctl o;
          ob_ret := ob_ret o ++ [{| re_pid := pid; re_off := off; re_len := len; re_st := SWrite 0 |}];
          ob_rel := ob_rel o |} /\ glen (ob_ret o) < MAX_RETAINED.
Proof.
  intros o pid off len o' H. unfold retain_packet in H. destruct (N.leb_spec MAX_RETAINED (glen (ob_ret o))); [discriminate|].
  injection H as <-. split; [reflexivity|assumption].
Qed.

Lemma ack_release_inv : forall o pid o', ack_release o pid = (o', true) ->
  exists es, remove_first_rel pid (ob_rel o) = Some es /\ o' = with_rel o es.
Proof.
  intros o pid o' H. unfold ack_release in H. destruct (remove_first_rel pid (ob_rel o)) as [es|]; [|discriminate].
  injection H as <-. exists es. split; reflexivity.
Qed.

Lemma next_packet_id_set_pid : forall s s' id, next_packet_id s = (s', id) -> s' = set_pid s (s_pid s').
Proof. intros s s' id H. unfold next_packet_id in H. destruct (next_packet_id_go _ _ _). injection H as <- _. reflexivity. Qed.

Lemma set_written_ob : forall s p w len s' b, set_written s p w len = (s', b) -> s' = set_ob s (s_ob s').
Proof.
  intros s p w len s' b H. unfold set_written in H.
  destruct p; [destruct (set_control_written _ _ _ _)|destruct (set_release_written _ _ _ _)|destruct (set_retained_written _ _ _ _)];
    injection H as <- _; reflexivity.
Qed.

Lemma complete_flush_ob_rt : forall s p now s' b, complete_flush s p now = (s', b) ->
  s' = set_rt (set_ob s (s_ob s')) (s_rt s') /\
  rt_quota (s_rt s') = rt_quota (s_rt s) /\ rt_maxquota (s_rt s') = rt_maxquota (s_rt s).
Proof.
  intros s p now s' b H. unfold complete_flush in H.
  destruct p as [a| |]; [destruct (flush_control _ _)|destruct (flush_release _ _)|destruct (flush_retained _ _)];
    injection H as <- _; (split; [reflexivity|]); try destruct a; split; reflexivity.
Qed.

Lemma queue_ctl_checked_spec : forall s a d,
  (exists o, check_control_size (rt_mps (s_rt s)) a = None /\ queue_control (s_ob s) a = Some o /\
             queue_ctl_checked s a d = (set_ob s o, HOk d)) \/
  (exists e, queue_ctl_checked s a d = (s, HErr e) /\
             (check_control_size (rt_mps (s_rt s)) a = Some e \/ (e = EInflightExhausted /\ queue_control (s_ob s) a = None))).
Proof.
  intros. unfold queue_ctl_checked. destruct (check_control_size _ _) as [e|]; [right; exists e; auto|].
  destruct (queue_control _ _) as [o|]; [left; exists o; auto|right; exists EInflightExhausted; auto].
Qed.

Lemma maybe_queue_pingreq_cases : forall s now s' e, maybe_queue_pingreq s now = (s', e) ->
  s' = s \/ (exists o, queue_control (s_ob s) CPing = Some o /\ s' = set_ob s o /\ e = None).
Proof.
  intros s now s' e H. unfold maybe_queue_pingreq in H. destruct (should_queue_pingreq s now); [|injection H as <- _; now left].
  destruct (check_control_size _ _); [injection H as <- _; now left|].
  destruct (queue_control (s_ob s) CPing) as [o|] eqn:E; injection H as <- <-; [right|left]; eauto.
Qed.

Lemma maybe_queue_pingreq_idle : forall s now, should_queue_pingreq s now = false -> maybe_queue_pingreq s now = (s, None).
Proof. intros s now H. unfold maybe_queue_pingreq. now rewrite H. Qed.

(* the acknowledgements that take a retained entry away, and those among them that name a PUBLISH *)
Definition acks (p : rpacket) (pid : N) : Prop :=
  match p with
  | RPubAck i _ | RPubRec i _ | RSubAck i _ _ | RUnsubAck i _ _ => i = pid
  | _ => False
  end.
Definition pub_ack (p : rpacket) (pid : N) : Prop :=
  match p with RPubAck i _ | RPubRec i _ => i = pid | _ => False end.

Lemma pub_ack_acks : forall p pid, pub_ack p pid -> acks p pid.
Proof. intros p pid H. destruct p; cbn [pub_ack acks] in *; tauto. Qed.

(* how the list of pending inbound QoS 2 identifiers can change in one packet *)
Definition srv_change (l v : list N) : Prop :=
  v = l \/ (exists i, swap_remove_id i l = Some v) \/
  (exists i, v = l ++ [i] /\ mem_id i l = false /\ glen l < MAX_INBOUND_QOS2).

Inductive hp_eff (s : session) (p : rpacket) : session -> Prop :=
| HE_id : hp_eff s p s
| HE_ctl a o v : queue_control (s_ob s) a = Some o -> srv_change (s_srv s) v -> hp_eff s p (set_srv (set_ob s o) v)
| HE_srv i v : swap_remove_id i (s_srv s) = Some v -> hp_eff s p (set_srv s v)
| HE_ack pid o : acks p pid -> ack_packet (s_ob s) pid = (o, true) -> hp_eff s p (set_ob s o)
| HE_ack_inc pid o : pub_ack p pid -> ack_packet (s_ob s) pid = (o, true) ->
    hp_eff s p (set_rt (set_ob s o) (quota_inc (s_rt s)))
| HE_ack_rel pid o o2 : pub_ack p pid -> ack_packet (s_ob s) pid = (o, true) -> queue_release o pid 0 = Some o2 ->
    hp_eff s p (set_ob s o2)
| HE_comp pid o : ack_release (s_ob s) pid = (o, true) -> hp_eff s p (set_rt (set_ob s o) (quota_inc (s_rt s)))
| HE_pong : hp_eff s p (set_rt s (rt_with_timers (s_rt s) (rt_next_ping (s_rt s)) None)).

Lemma queue_ctl_checked_eff : forall s p a d s' hr, queue_ctl_checked s a d = (s', hr) -> hp_eff s p s'.
Proof.
  intros s p a d s' hr H. destruct (queue_ctl_checked_spec s a d) as [[o [_ [E E1]]]|[e [E1 _]]]; rewrite E1 in H; injection H as <- _; [|constructor].
  change (set_ob s o) with (set_srv (set_ob s o) (s_srv s)). eapply HE_ctl; [exact E | now left].
Qed.

Theorem handle_packet_eff : forall s p s' hr, handle_packet s p = (s', hr) -> hp_eff s p s'.
Proof.
  intros s p s' hr H. destruct p; cbn [handle_packet] in H.
  - injection H as <- _. constructor.
  - destruct q; [injection H as <- _; constructor| |]; (destruct pid as [id|]; [|injection H as <- _; constructor]).
    + eapply queue_ctl_checked_eff; exact H.
    + match type of H with context [queue_ctl_checked s ?a ?d] =>
        destruct (queue_ctl_checked_spec s a d) as [[o [_ [Eo E]]]|[e [E _]]]; rewrite E in H; cbv beta iota in H end;
        [|injection H as <- _; constructor].
      destruct (mem_id id (s_srv s)) eqn:Em; cbn [orb] in H.
      * injection H as <- _. change (set_ob s o) with (set_srv (set_ob s o) (s_srv s)). eapply HE_ctl; [exact Eo | now left].
      * destruct (N.leb_spec MAX_INBOUND_QOS2 (glen (s_srv s))); injection H as <- _.
        -- change (set_ob s o) with (set_srv (set_ob s o) (s_srv s)). eapply HE_ctl; [exact Eo | now left].
        -- eapply HE_ctl; [exact Eo|]. right; right. exists id. repeat split; assumption.
  - destruct (ack_packet _ _) as [o f] eqn:E. destruct f; cbn [negb] in H; [|injection H as <- _; constructor].
    destruct (rc_success rc); injection H as <- _; eapply HE_ack_inc; try exact E; reflexivity.
  - destruct (ack_packet _ _) as [o f] eqn:E. destruct f.
    + destruct (negb _); [injection H as <- _; eapply HE_ack_inc; try exact E; reflexivity|].
      destruct (check_pubrel_size _ _ _); [injection H as <- _; eapply HE_ack; try exact E; reflexivity|].
      cbn [set_ob s_ob] in H. destruct (queue_release o pid 0) as [o2|] eqn:Q; injection H as <- _;
        [|eapply HE_ack; try exact E; reflexivity].
      eapply (HE_ack_rel s _ pid o o2); try eassumption; reflexivity.
    + destruct (has_pending_release _ _); [destruct (rc_success rc)|]; injection H as <- _; constructor.
  - destruct (swap_remove_id pid (s_srv s)) as [l|] eqn:E; [|eapply queue_ctl_checked_eff; exact H].
    match type of H with queue_ctl_checked ?s1 ?a ?d = _ =>
      destruct (queue_ctl_checked_spec s1 a d) as [[o [_ [Eo E1]]]|[e [E1 _]]]; rewrite E1 in H; injection H as <- _ end;
      [|eapply HE_srv; exact E].
    eapply (HE_ctl s _ _ o l); [exact Eo|]. right; left. eauto.
  - destruct (ack_release _ _) as [o f] eqn:E. destruct f; cbn [negb] in H; [|injection H as <- _; constructor].
    destruct (rc_success rc); injection H as <- _; eapply HE_comp; exact E.
  - destruct (ack_packet _ _) as [o f] eqn:E. destruct f; cbn [negb] in H; [|injection H as <- _; constructor].
    destruct (all_success codes); injection H as <- _; eapply HE_ack; try exact E; reflexivity.
  - destruct (ack_packet _ _) as [o f] eqn:E. destruct f; cbn [negb] in H; [|injection H as <- _; constructor].
    destruct (all_success codes); injection H as <- _; eapply HE_ack; try exact E; reflexivity.
  - injection H as <- _. constructor.
  - injection H as <- _. constructor.
Qed.

(* the parts of a session that neither an inbound packet nor the middle of a request touches *)
Record sess_frame (s s' : session) : Prop := {
  sf_cfg : s_cfg s' = s_cfg s;             sf_client_id : s_client_id s' = s_client_id s;
  sf_reader : s_reader s' = s_reader s;    sf_gen : s_gen s' = s_gen s;
  sf_sp : s_sp s' = s_sp s;                sf_resumed : rt_resumed (s_rt s') = rt_resumed (s_rt s);
  sf_ka_ms : rt_ka_ms (s_rt s') = rt_ka_ms (s_rt s);
  sf_maxquota : rt_maxquota (s_rt s') = rt_maxquota (s_rt s);
  sf_mps : rt_mps (s_rt s') = rt_mps (s_rt s);
  sf_maxqos : rt_maxqos (s_rt s') = rt_maxqos (s_rt s);
  sf_next_ping : rt_next_ping (s_rt s') = rt_next_ping (s_rt s) }.

Lemma hp_frame : forall s p s', hp_eff s p s' -> sess_frame s s'.
Proof. intros s p s' H. destruct H; now split. Qed.

Lemma handle_packet_frame : forall s p, sess_frame s (fst (handle_packet s p)).
Proof. intros s p. exact (hp_frame _ _ _ (handle_packet_eff s p _ _ (surjective_pairing _))). Qed.

(* What the middle of a request does.  `dec` says whether a retained packet costs a unit of send quota; an error is a
   local refusal (or Disconnected, for a QoS 0 publish on a dead handle); `D` says which bytes `MDirect` may carry;
   `E id` which encoders may be used for the allocated identifier. *)
Definition local_err (e : err) : Prop :=
  match e with
  | ENotReady | EInvalidRequest | EBufferTooSmall | EPacketTooLarge | EInflightExhausted | EPayload => True
  | _ => False
  end.

Lemma err_of_serr_local : forall se, local_err (err_of_serr se).
Proof. intros []; exact I. Qed.

Inductive mid_out (E : N -> (N -> sres) -> Prop) (D : bytes -> Prop) (dec live : bool) (s : session)
  : session -> midres -> Prop :=
| MO_refused e : local_err e -> mid_out E D dec live s s (MErr e)
| MO_direct_err e : dec = true -> local_err e \/ (e = EDisconnected /\ live = false) ->
    mid_out E D dec live s (set_ob s (compact (s_ob s))) (MErr e)
| MO_direct bs : dec = true -> live = true -> D bs -> too_large (rt_mps (s_rt s)) (lenN bs) = false ->
    mid_out E D dec live s (set_ob s (compact (s_ob s))) (MDirect bs)
| MO_pid p id e : next_packet_id s = (set_pid s p, id) -> local_err e -> mid_out E D dec live s (set_pid s p) (MErr e)
| MO_enc p id enc e : next_packet_id s = (set_pid s p, id) -> E id enc -> local_err e ->
    mid_out E D dec live s (set_ob (set_pid s p) (fst (encode_at (s_ob s) enc))) (MErr e)
| MO_ret p id enc o1 off len o2 k : next_packet_id s = (set_pid s p, id) -> E id enc ->
    encode_at (s_ob s) enc = (o1, EOk off len) -> too_large (rt_mps (s_rt s)) len = false ->
    retain_packet o1 id off len = Some o2 ->
    (dec = true -> live = true /\ rt_quota (s_rt s) <> 0 /\ can_retain (s_ob s) = true) ->
    mid_out E D dec live s
      (if dec then set_rt (set_ob (set_pid s p) o2) (rt_with_quota (s_rt s) (rt_quota (s_rt s) - 1))
       else set_ob (set_pid s p) o2)
      (MRetained {| op_kind := k; op_pid := id; op_gen := s_gen s |}).

Lemma mid_out_err : forall E D dec live s s' e, mid_out E D dec live s s' (MErr e) ->
  local_err e \/ (e = EDisconnected /\ live = false /\ dec = true).
Proof.
  intros E D dec live s s' e H. remember (MErr e) as m eqn:Em.
  destruct H as [e0 Hl|e0 Hd [Hl|[He Hv]]|bs|p id e0 _ Hl|p id enc e0 _ _ Hl|]; try discriminate; injection Em as <-; auto.
Qed.

(* the tail that publish (QoS > 0), subscribe and unsubscribe share *)
Local Lemma tail_out : forall (E : N -> (N -> sres) -> Prop) (D : bytes -> Prop) (dec live : bool) s p id enc k (fin : session -> outbound -> session) s' m,
  next_packet_id s = (set_pid s p, id) -> E id enc ->
  (dec = true -> live = true /\ rt_quota (s_rt s) <> 0 /\ can_retain (s_ob s) = true) ->
  (forall o1 o2, fin (set_ob (set_pid s p) o1) o2 =
     if dec then set_rt (set_ob (set_pid s p) o2) (rt_with_quota (s_rt s) (rt_quota (s_rt s) - 1))
     else set_ob (set_pid s p) o2) ->
  (let '(o1, er) := encode_at (s_ob (set_pid s p)) enc in
   let s2 := set_ob (set_pid s p) o1 in
   match er with
   | EErr e => (s2, MErr (err_of_serr e))
   | EOk off len =>
       if too_large (rt_mps (s_rt s2)) len then (s2, MErr EPacketTooLarge) else
       match retain_packet o1 id off len with
       | None => (s2, MErr EInflightExhausted)
       | Some o2 => (fin s2 o2, MRetained {| op_kind := k; op_pid := id; op_gen := s_gen (fin s2 o2) |})
       end
   end) = (s', m) ->
  mid_out E D dec live s s' m.
Proof.
  intros E D dec live s p id enc k fin s' m Hn He Hd Hfin H. cbn [set_pid s_ob] in H.
  destruct (encode_at (s_ob s) enc) as [o1 er] eqn:Ee.
  assert (E1 : forall e, local_err e -> mid_out E D dec live s (set_ob (set_pid s p) o1) (MErr e)).
  { intros e Hl. replace o1 with (fst (encode_at (s_ob s) enc)) by now rewrite Ee. eapply MO_enc; eassumption. }
  destruct er as [off len|e]; [|injection H as <- <-; apply E1, err_of_serr_local].
  cbn [set_ob set_pid s_rt] in H. destruct (too_large (rt_mps (s_rt s)) len) eqn:Et; [injection H as <- <-; now apply E1|].
  destruct (retain_packet o1 id off len) as [o2|] eqn:Er; [|injection H as <- <-; now apply E1].
  injection H as <- <-. rewrite Hfin.
  replace (s_gen (if dec then _ else _)) with (s_gen s) by (destruct dec; reflexivity).
  eapply MO_ret; eassumption.
Qed.

Definition enc_at (enc : N -> N -> sres) (id : N) (e : N -> sres) : Prop := e = fun cap => enc cap id.

Theorem enqueue_middle_out : forall s kind enc s' m,
  enqueue_middle s kind enc = (s', m) -> mid_out (enc_at enc) (fun _ => False) false true s s' m.
Proof.
  intros s kind enc s' m H. unfold enqueue_middle in H. destruct (retained_full _); [injection H as <- <-; now constructor|].
  destruct (next_packet_id s) as [s1 id] eqn:En. pose proof (next_packet_id_set_pid _ _ _ En) as Hs. rewrite Hs in En, H.
  eapply (tail_out _ _ false true s (s_pid s1) id (fun cap => enc cap id) kind set_ob); try exact H; try exact En;
    [reflexivity | discriminate | reflexivity].
Qed.

Definition pub_packet (r : pub_req) (q : qos) (pid : option N) : publish_req :=
  {| pq_topic := pr_topic r; pq_pid := pid; pq_props := pr_props r; pq_retain := pr_retain r;
     pq_qos := q; pq_dup := false; pq_payload := pr_payload r |}.
Definition pub_at (r : pub_req) (q : qos) (id : N) (e : N -> sres) : Prop :=
  q <> Q0 /\ e = fun cap => enc_publish cap (pub_packet r q (Some id)).
Definition pub_direct (r : pub_req) (s : session) (bs : bytes) : Prop :=
  exists off, enc_publish (ob_cap (compact (s_ob s)) - ob_used (compact (s_ob s))) (pub_packet r Q0 None) = SOk off bs.

Theorem publish_middle_out : forall s live r s' m,
  publish_middle s live r = (s', m) ->
  mid_out (pub_at r (effective_qos s (pr_qos r))) (pub_direct r s) true live s s' m.
Proof.
  intros s live r s' m H. unfold publish_middle in H. destruct (negb (props_valid_for _ _)); [injection H as <- <-; now constructor|].
  destruct (effective_qos s (pr_qos r)) eqn:Eq.
  1: { destruct (live && sess_can_publish s Q0) eqn:Ecp; cbn [negb] in H; [|injection H as <- <-; now constructor].
       fold (pub_packet r Q0 None) in H. destruct (enc_publish _ _) as [off bs|se] eqn:Ee;
         [|injection H as <- <-; apply MO_direct_err; [reflexivity | left; apply err_of_serr_local]].
       cbn [set_ob s_rt] in H. destruct (too_large _ _) eqn:Et; [injection H as <- <-; apply MO_direct_err; [reflexivity | now left]|].
       destruct live; cbn [negb] in H; injection H as <- <-;
         [apply MO_direct; try reflexivity; [now exists off | exact Et] | apply MO_direct_err; [reflexivity | now right]]. }
  (* QoS 1 and QoS 2 differ in the kind of the handle only *)
  all: destruct (next_packet_id s) as [s1 id] eqn:En; pose proof (next_packet_id_set_pid _ _ _ En) as Hs; rewrite Hs in En, H;
    (destruct (retained_full _); [injection H as <- <-; eapply MO_pid; [exact En | exact I]|]);
    match type of H with context [negb (?l && ?c)] => destruct (l && c) eqn:Ecp end; cbn [negb] in H;
      [|injection H as <- <-; eapply MO_pid; [exact En | exact I]];
    match type of H with context [encode_at _ (fun cap => enc_publish cap ?q)] =>
      let qq := eval cbn in (pq_qos q) in change q with (pub_packet r qq (Some id)) in H end;
    match type of H with context [MRetained {| op_kind := ?k; op_pid := _; op_gen := _ |}] =>
      eapply (tail_out _ _ true live s (s_pid s1) id _ k
               (fun s2 o2 => set_rt (set_ob s2 o2) (rt_with_quota (s_rt s2) (rt_quota (s_rt s2) - 1)))) end;
    try exact H; try exact En; try reflexivity; [split; [discriminate | reflexivity]|];
    intros _; apply andb_prop in Ecp; destruct Ecp as [-> Ecp]; cbn [sess_can_publish set_pid s_rt s_ob] in Ecp;
    apply andb_prop in Ecp; destruct Ecp as [Ecp Ecr]; (split; [reflexivity|]); split; [|exact Ecr];
    destruct (N.eqb_spec (rt_quota (s_rt s)) 0); [discriminate|assumption].
Qed.

(* the flag tells a PUBLISH, which costs send quota, from the other two *)
Inductive req_enc : bool -> (N -> sres) -> Prop :=
| RE_pub r : req_enc true (fun cap => enc_publish cap r)
| RE_sub r : req_enc false (fun cap => enc_subscribe cap r)
| RE_unsub r : req_enc false (fun cap => enc_unsubscribe cap r).

Lemma mid_out_mono : forall (E E' : N -> (N -> sres) -> Prop) D dec live s s' m, (forall id e, E id e -> E' id e) ->
  mid_out E D dec live s s' m -> mid_out E' D dec live s s' m.
Proof.
  intros E E' D dec live s s' m HE H. destruct H; try (now constructor).
  - eapply MO_pid; eassumption.
  - eapply MO_enc; eauto.
  - eapply MO_ret; eauto.
Qed.

Lemma mid_frame : forall E D dec live s s' m, mid_out E D dec live s s' m -> sess_frame s s'.
Proof. intros E D dec live s s' m H. destruct H; try destruct dec; now split. Qed.

Lemma mid_srv : forall E D dec live s s' m, mid_out E D dec live s s' m -> s_srv s' = s_srv s.
Proof. intros E D dec live s s' m H. destruct H; try destruct dec; reflexivity. Qed.

Definition connack_acc0 (s : session) : connack_acc :=
  let local_quota := N.min MAX_RETAINED MAX_PENDING_RELEASE in
  {| ca_quota := local_quota; ca_maxquota := local_quota; ca_maxqos := None; ca_mps := None;
     ca_ka_ms := (cf_keepalive_s (s_cfg s) mod 65536) * 1000; ca_cid := None |}.

(* the session a successful CONNACK leaves: `sp` is its session-present flag, `a` what its properties said *)
Definition connack_ok (s : session) (sp : bool) (a : connack_acc) (now : N) : session :=
  let s1 := if sp then s else data_reset s in
  let r := {| rt_resumed := sp; rt_ka_ms := ca_ka_ms a;
              rt_quota := ca_quota a - unresolved_publishes (s_ob s1); rt_maxquota := ca_maxquota a;
              rt_mps := ca_mps a; rt_maxqos := ca_maxqos a;
              rt_next_ping := rt_next_ping (s_rt s1); rt_ping_timeout := rt_ping_timeout (s_rt s1) |} in
  let r2 := rt_with_timers (note_outbound_activity r now) (rt_next_ping (note_outbound_activity r now)) None in
  {| s_cfg := s_cfg s1;
     s_client_id := match ca_cid a with Some c => c | None => s_client_id s1 end;
     s_reader := s_reader s1; s_ob := s_ob s1; s_pid := s_pid s1; s_gen := s_gen s1;
     s_sp := true; s_srv := s_srv s1; s_rt := r2 |}.

Theorem connack_cases : forall s p now s' cr, connack_process s p now = (s', cr) ->
  (s' = s /\ exists e d, cr = CAErr e d) \/
  (exists sp rc props a, p = Some (RConnAck sp rc props) /\ rc_success rc = true /\
     connack_props (props_iter_encoded props) (N.min MAX_RETAINED MAX_PENDING_RELEASE) (connack_acc0 s) = Some a /\
     s' = connack_ok s sp a now /\ cr = CAOk sp).
Proof.
  intros s p now s' cr H. unfold connack_process in H.
  destruct p as [p|]; [|injection H as <- <-; left; eauto]. destruct p; try (injection H as <- <-; left; eauto; fail).
  destruct (rc_success rc) eqn:Er; cbn [negb] in H; [|injection H as <- <-; left; eauto].
  fold (connack_acc0 s) in H.
  destruct (connack_props _ _ (connack_acc0 s)) as [a|] eqn:Ea; injection H as <- <-; [|left; eauto].
  right. exists sp, rc, props, a. repeat split; assumption.
Qed.
