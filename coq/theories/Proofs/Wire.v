(* Wire.v — C01 over whole executions: in every reachable world whose ghost flag `w_poison` is clear, the bytes the
   current transport has accepted are a sequence of whole packets followed by the written prefix of the one entry
   that is in progress (live handle), resp. by a prefix of one packet (dead handle).  `w_poison` is set (by
   `mark_partial` and `op_disconnect`, Machine.v) in the three recorded ways in which a packet can start inside
   another one: a QoS 0 publish or a disconnect() dropped (or met by Ok(0)) in the middle of its packet, and disconnect()
   called while a queued packet is half written.
   `tail_of` is what the entry in progress owns of the wire; `G` is the session invariant with the wire form `WI`; `Pres w w'`
   says that w' keeps G, `PN` adds that the reader holds no complete packet, `OpOk` is the form for the operations of a
   handle, `Good` the one for `run_action`.  Bytes reach the wire in three places: `written_PN` (a piece of a queued entry),
   `direct_write` (a QoS 0 PUBLISH or a DISCONNECT on a live handle) and `ConnPost_sent` (the CONNECT on a fresh transport);
   everywhere else the wire is as before and `Pres_tail` asks only that the new session own the same tail.  The theorem is
   `wire_is_whole_packets`. *)
From Coq Require Import PeanoNat.
From Minimq Require Import Bytes Ser Reader Spec Arena Core Show Machine Run Util Lts Blocks Refine
  ArenaLemmas ArenaOps Inv Persist Frames Reach WireInv Io Effects Engine Behaving.
Import ListNotations.
Local Open Scope N_scope.

Definition ctl_bytes (a : caction) : bytes := match encode_control_packet a with SOk _ bs => bs | SErr _ => [] end.
Definition rel_bytes (pid rc : N) : bytes := match encode_pubrel pid rc with SOk _ bs => bs | SErr _ => [] end.
Definition st_prefix (st : sstate) (bs : bytes) : bytes := match st with SWrite k => takeN k bs | _ => [] end.

Definition tail_ctl (l : list centry) : bytes := concat (map (fun e => st_prefix (ce_st e) (ctl_bytes (ce_act e))) l).
Definition tail_rel (l : list lentry) : bytes := concat (map (fun e => st_prefix (le_st e) (rel_bytes (le_pid e) (le_rc e))) l).
Definition tail_ret (buf : bytes) (l : list rentry) : bytes :=
  concat (map (fun e => st_prefix (re_st e) (sliceN (re_off e) (re_len e) buf)) l).
Definition tail_of (o : outbound) : bytes := tail_ctl (ob_ctl o) ++ tail_rel (ob_rel o) ++ tail_ret (ob_buf o) (ob_ret o).

Lemma st_prefix_quiet : forall st bs, sstate_partial st = false -> st_prefix st bs = [].
Proof.
  intros [k| |] bs H; cbn [st_prefix sstate_partial] in *; try reflexivity.
  destruct (N.eqb_spec k 0) as [->|]; [apply takeN_0|discriminate].
Qed.

Lemma quiet_not_partial : forall s, is_in_progress s = false -> sstate_partial s = false.
Proof. intros [k| |] H; cbn in *; try reflexivity; try discriminate. exact H. Qed.

Lemma tail_items : forall o, tail_of o = Gi st_prefix (items o).
Proof. intros. unfold tail_of, tail_ctl, tail_rel, tail_ret, items. rewrite !Gi_app. unfold Gi. now rewrite !map_map. Qed.

Lemma npart_items : forall o, npart o = ppl (map fst (items o)).
Proof. intros. unfold npart, items. now rewrite !map_app, !ppl_app, !map_map, Nat.add_assoc. Qed.

Lemma quiet_tail : forall l, Forall quiet l -> Gi st_prefix l = [] /\ ppl (map fst l) = 0%nat.
Proof.
  intros l H. split.
  - apply Gi_nil. eapply Forall_impl; [|exact H]. intros i Q. apply st_prefix_quiet, quiet_not_partial, Q.
  - apply ppl_fresh_all, Forall_map. eapply Forall_impl; [|exact H]. intros i Q. apply quiet_not_partial, Q.
Qed.

Lemma npart_zero_tail : forall o, npart o = 0%nat -> tail_of o = [].
Proof.
  intros o H. rewrite npart_items in H. rewrite tail_items. apply Gi_nil. apply ppl_zero_forall in H. rewrite Forall_map in H.
  eapply Forall_impl; [|exact H]. intros i. apply st_prefix_quiet.
Qed.

Lemma quiet_tails : forall o o', npart o = 0%nat -> (npart o' <= npart o)%nat -> tail_of o' = tail_of o.
Proof. intros o o' Z L. rewrite (npart_zero_tail _ Z). apply npart_zero_tail. lia. Qed.

Lemma next_none_npart : forall o, next_step o = None -> npart o = 0%nat.
Proof.
  intros o H. rewrite npart_items. apply quiet_tail. apply next_step_none in H.
  eapply Forall_impl; [|exact H]. intros i [Q _]. exact Q.
Qed.

Lemma tail_of_queue_control : forall o a o', queue_control o a = Some o' -> tail_of o' = tail_of o.
Proof.
  intros o a o' H. destruct (queue_control_inv o a o' H) as [-> _]. unfold tail_of, tail_ctl, with_ctl. cbn [ob_ctl ob_rel ob_ret ob_buf].
  rewrite map_app, concat_app. cbn [map concat st_prefix ce_st]. rewrite takeN_0. now rewrite !app_nil_r.
Qed.

Lemma has_partial_npart : forall o, has_partial o = false <-> npart o = 0%nat.
Proof.
  intros o. unfold has_partial, npart.
  assert (G : forall {A} (st : A -> sstate) (l : list A), existsb (fun e => sstate_partial (st e)) l = false <-> ppl (map st l) = 0%nat).
  { intros A st l. induction l as [|x t IH]; [split; reflexivity|]. cbn [existsb map]. rewrite ppl_cons.
    destruct (sstate_partial (st x)); cbn [orb]; [split; [discriminate|lia]|]. rewrite IH. split; lia. }
  rewrite !orb_false_iff, (G _ ce_st), (G _ le_st), (G _ re_st). lia.
Qed.

Lemma wf_layout_bound : forall es lo used e, wf_layout lo es used -> In e es -> re_off e + re_len e <= used.
Proof.
  induction es as [|x t IH]; intros lo used e W Hi; [contradiction|]. cbn [wf_layout] in W. destruct W as [W1 [W2 W3]].
  destruct Hi as [->|Hi]; [now apply wf_layout_le in W3|]. eapply IH; eassumption.
Qed.

Lemma ret_entry_frame : forall o e, arena_wf o -> FrameInv o -> In e (ob_ret o) ->
  is_frame (sliceN (re_off e) (re_len e) (ob_buf o)) /\ lenN (sliceN (re_off e) (re_len e) (ob_buf o)) = re_len e.
Proof.
  intros o e [W U] F Hi. split.
  - unfold FrameInv in F. rewrite Forall_forall in F.
    apply (F (a_key (abs_entry (ob_buf o) e))). apply in_map. unfold abs. apply in_map. exact Hi.
  - apply lenN_sliceN. pose proof (wf_layout_bound _ _ _ _ W Hi). lia.
Qed.

Lemma sws_prefix : forall w n len bs, lenN bs = len ->
  st_prefix (set_written_state (w + n) len) bs = if len <=? w + n then [] else takeN (w + n) bs.
Proof. intros. unfold set_written_state. destruct (len <=? w + n); reflexivity. Qed.

Lemma WInv_served : forall s, WInv s -> Served (s_ob s).
Proof.
  intros s [I [_ [Hs Hc]]]. destruct (nodup_ids _ (oi_nodup _ (inv_ob _ I))) as [Nret Nrel]. exact (conj Nret (conj Nrel (conj Hc Hs))).
Qed.

Lemma prepared_frame : forall s st p bs w len,
  WInv s -> next_step (s_ob s) = Some st -> prepare_step s st = PWrite p bs w len -> lenN bs = len /\ is_frame bs.
Proof.
  intros s st p bs w len [I [F _]] Hn Hp. pose proof (next_step_entry _ _ Hn) as He.
  destruct st as [a s0|pid rc s0|pid off l0 s0]; destruct s0 as [k| |]; try discriminate Hp.
  - destruct (engine_ctl_bytes s a k p bs w len Hp) as [_ [_ [Hlen [first [Hfr _]]]]]. split; [now rewrite Hlen|now exists first].
  - destruct (engine_rel_bytes s pid rc k p bs w len Hp) as [_ [_ [Hlen Hfr]]]. split; [now rewrite Hlen|eexists; exact Hfr].
  - destruct He as [e [Hin [_ [<- [<- _]]]]]. cbn [prepare_step] in Hp. destruct (too_large _ _); [discriminate|]. inversion Hp; subst.
    destruct (ret_entry_frame (s_ob s) e (oi_arena _ (inv_ob _ I)) F Hin) as [Hfr Hlen]. split; [exact Hlen|exact Hfr].
Qed.

Theorem engine_tail : forall s st p bs w len n,
  WInv s -> next_step (s_ob s) = Some st -> prepare_step s st = PWrite p bs w len ->
  tail_of (s_ob s) = takeN w bs /\ lenN bs = len /\ is_frame bs /\
  tail_of (s_ob (fst (set_written s p (w + n) len))) = st_prefix (set_written_state (w + n) len) bs /\
  (len <= w + n -> npart (s_ob (fst (set_written s p (w + n) len))) = 0%nat).
Proof.
  intros s st p bs w len n I Hn Hp. destruct (prepared_frame s st p bs w len I Hn Hp) as [Hlen Hfr].
  destruct (write_focus s st p bs w len (WInv_served s I) Hn Hp) as [pre [post [E0 [E1 [_ [Qpre [Qpost _]]]]]]].
  destruct (quiet_tail _ Qpre) as [Tpre Ppre]. destruct (quiet_tail _ Qpost) as [Tpost Ppost].
  rewrite !tail_items, npart_items, E0, (E1 (w + n)), !Gi_focus, Tpre, Tpost, !app_nil_r. cbn [app].
  repeat split; try assumption.
  intros Hle. rewrite map_app, ppl_app. cbn [map fst]. rewrite ppl_cons, Ppre, Ppost.
  unfold set_written_state. destruct (N.leb_spec len (w + n)); [reflexivity|lia].
Qed.

Theorem engine_flush_tail : forall s st p now,
  WInv s -> next_step (s_ob s) = Some st -> prepare_step s st = PFlush p ->
  tail_of (s_ob (fst (complete_flush s p now))) = tail_of (s_ob s).
Proof.
  intros s st p now I Hn Hp.
  destruct (flush_focus s st p (WInv_served s I) Hn Hp) as [pre [post [bs [mid [E0 [Hm [E1 _]]]]]]].
  rewrite !tail_items, E0, (E1 now), !Gi_app, Gi_cons. destruct Hm as [-> | ->]; reflexivity.
Qed.

Definition prefix_of_frame (t : bytes) : Prop := t = [] \/ exists f k, is_frame f /\ t = takeN k f.

Lemma ctl_bytes_frame : forall a, ctl_bytes a = [] \/ is_frame (ctl_bytes a).
Proof.
  intros a. unfold ctl_bytes. destruct (encode_control_packet a) as [off bs|e] eqn:E; [|now left].
  right. destruct (control_packet_frame a off bs E) as [first [F _]]. now exists first.
Qed.
Lemma rel_bytes_frame : forall pid rc, rel_bytes pid rc = [] \/ is_frame (rel_bytes pid rc).
Proof.
  intros. unfold rel_bytes. destruct (encode_pubrel pid rc) as [off bs|e] eqn:E; [|now left].
  right. eexists. exact (proj1 (pubrel_frame pid rc off bs E)).
Qed.
Lemma takeN_nil : forall k, takeN k (@nil N) = [].
Proof. intros. now destruct k. Qed.

Lemma prefix_shape : forall st bs, bs = [] \/ is_frame bs -> prefix_of_frame (st_prefix st bs).
Proof.
  intros [k| |] bs H; cbn [st_prefix]; try (now left). destruct H as [->|H]; [left; apply takeN_nil|].
  right. exists bs, k. split; [exact H|reflexivity].
Qed.

Lemma items_frames : forall s, WInv s -> Forall (fun i : item => snd i = [] \/ is_frame (snd i)) (items (s_ob s)).
Proof.
  intros s [I [F _]]. unfold items. rewrite !Forall_app, !Forall_map. split; [|split]; apply Forall_forall; intros e He.
  - apply ctl_bytes_frame.
  - apply rel_bytes_frame.
  - right. exact (proj1 (ret_entry_frame (s_ob s) e (oi_arena _ (inv_ob _ I)) F He)).
Qed.

(* at most one entry is in progress, and it alone owns bytes on the wire *)
Lemma items_shape : forall l : list item, (busy (map fst l) <= 1)%nat ->
  Forall (fun i => snd i = [] \/ is_frame (snd i)) l -> prefix_of_frame (Gi st_prefix l).
Proof.
  induction l as [|[st bs] t IH]; intros H F; [now left|]. inversion F as [|? ? Fx Ft]; subst.
  cbn [map fst] in H. rewrite busy_cons in H. rewrite Gi_cons. destruct (is_in_progress st) eqn:E.
  - assert (Q : Forall quiet t) by (apply busy_quiet; lia). rewrite (proj1 (quiet_tail t Q)), app_nil_r. now apply prefix_shape.
  - rewrite st_prefix_quiet by now apply quiet_not_partial. apply IH; [lia|exact Ft].
Qed.

Theorem tail_shape : forall s, WInv s -> prefix_of_frame (tail_of (s_ob s)).
Proof.
  intros s I. rewrite tail_items. apply items_shape; [|now apply items_frames].
  destruct I as [_ [_ [Hs _]]]. unfold Single in Hs. now rewrite nip_items in Hs.
Qed.

Definition frames_ok (fs : list bytes) : Prop := Forall is_frame fs.
Definition DeadForm (w : world) : Prop :=
  exists fs t, frames_ok fs /\ w_wire w = concat fs ++ t /\ prefix_of_frame t.
Definition LiveForm (w : world) : Prop :=
  exists fs, frames_ok fs /\ w_wire w = concat fs ++ tail_of (s_ob (w_sess w)).
(* a complete inbound packet waits in the reader only while no outbound packet is half written *)
Definition Jinv (w : world) : Prop :=
  packet_available (s_reader (w_sess w)) = true -> npart (s_ob (w_sess w)) = 0%nat.
Definition WI (w : world) : Prop :=
  w_poison w = false -> DeadForm w /\ (w_live w = true -> LiveForm w /\ Jinv w).

Lemma live_is_dead : forall w, WInv (w_sess w) -> LiveForm w -> DeadForm w.
Proof.
  intros w I [fs [F E]]. exists fs, (tail_of (s_ob (w_sess w))). split; [exact F|]. split; [exact E|]. now apply tail_shape.
Qed.

Definition G (w : world) : Prop := WInv (w_sess w) /\ WI w.
Definition Pres (w w' : world) : Prop := (w_poison w' = false -> w_poison w = false) /\ (G w -> G w').
Definition NA (w : world) : Prop := packet_available (s_reader (w_sess w)) = false.
Definition NAl (w : world) : Prop := w_live w = true -> NA w.

Lemma Pres_refl : forall w, Pres w w.
Proof. intros. split; auto. Qed.
Lemma Pres_trans : forall a b c, Pres a b -> Pres b c -> Pres a c.
Proof. intros a b c [H1 H2] [H3 H4]. split; auto. Qed.

Lemma NA_Jinv : forall w, NA w -> Jinv w.
Proof. intros w H Ha. unfold NA in H. congruence. Qed.

Lemma G_live : forall w, WInv (w_sess w) -> (w_poison w = false -> LiveForm w /\ Jinv w) -> G w.
Proof. intros w I H. split; [exact I|]. intros Hp. destruct (H Hp) as [L J]. split; [now apply live_is_dead|auto]. Qed.
Lemma G_dead : forall w, WInv (w_sess w) -> w_live w = false -> (w_poison w = false -> DeadForm w) -> G w.
Proof. intros w I Hl H. split; [exact I|]. intros Hp. split; [exact (H Hp)|]. intros Hd. congruence. Qed.
Lemma G_form : forall w, G w -> w_poison w = false -> w_live w = true -> LiveForm w /\ Jinv w.
Proof. intros w [_ H] Hp Hl. exact (proj2 (H Hp) Hl). Qed.

Definition same_ghost (w w' : world) : Prop :=
  w_wire w' = w_wire w /\ w_live w' = w_live w /\ w_poison w' = w_poison w.
Lemma frame_ghost : forall w w', io_frame w w' -> w_wire w' = w_wire w -> w_sess w' = w_sess w /\ same_ghost w w'.
Proof. intros w w' [] W. repeat split; assumption. Qed.

Lemma io_write_ghost : forall bs w w1 r, io_write bs w = (w1, r) ->
  w_sess w1 = w_sess w /\ w_live w1 = w_live w /\ w_poison w1 = w_poison w /\
  match r with
  | WOk n => w_wire w1 = w_wire w ++ takeN n bs /\ n <= lenN bs
  | _ => w_wire w1 = w_wire w
  end.
Proof.
  intros bs w w1 r H. destruct (io_write_spec _ _ _ _ H) as [[] S]. auto.
Qed.

Lemma io_flush_ghost : forall w w1 r, io_flush w = (w1, r) -> w_sess w1 = w_sess w /\ same_ghost w w1.
Proof.
  intros w w1 r H. pose proof (io_flush_frame w) as F. destruct (io_flush_other w) as [W _]. rewrite H in F, W.
  cbn [fst] in F, W. destruct F. repeat split; assumption.
Qed.

Lemma G_same : forall w w', w_sess w' = w_sess w -> same_ghost w w' -> G w -> G w'.
Proof.
  intros w w' Hs [Hw [Hl Hp]] [I H]. split; [now rewrite Hs|]. unfold WI, DeadForm, LiveForm, Jinv in *.
  rewrite Hs, Hw, Hl, Hp. exact H.
Qed.
Lemma Pres_same : forall w w', w_sess w' = w_sess w -> same_ghost w w' -> Pres w w'.
Proof. intros w w' Hs Hg. split; [destruct Hg as [_ [_ Hp]]; now rewrite Hp|now apply G_same]. Qed.

Lemma WInv_wq : forall w w', wq w w' -> WInv (w_sess w) -> WInv (w_sess w').
Proof.
  intros w w' H I. apply wq_sreach in H. destruct H as [ls H]. eapply (spath_inv WInv); [exact WInv_step|exact H|exact I].
Qed.

Lemma Pres_hd : forall w, Pres w (w_hd w).
Proof.
  intros w. split; [auto|]. intros [I H]. apply G_dead; [eapply WInv_wq; [apply hd_wq|exact I]|reflexivity|].
  intros Hp. exact (proj1 (H Hp)).
Qed.

Lemma WInv_res : forall {A} (p : world * A) w w' r, wq w (fst p) -> p = (w', r) -> WInv (w_sess w) -> WInv (w_sess w').
Proof. intros A p w w' r Hq ->. apply WInv_wq, Hq. Qed.

Definition PN (w w' : world) : Prop := (w_poison w' = false -> w_poison w = false) /\ NA w' /\ (G w -> G w').

Lemma PN_Pres : forall a b, PN a b -> Pres a b.
Proof. intros a b [A [_ B]]. exact (conj A B). Qed.
Lemma PN_trans : forall a b c, PN a b -> PN b c -> PN a c.
Proof. intros a b c [A [_ B]] [C [D E]]. split; [auto|]. split; [exact D|auto]. Qed.
Lemma PN_same : forall w w', w_sess w' = w_sess w -> same_ghost w w' -> NA w -> PN w w'.
Proof. intros w w' Hs Hg Hna. destruct (Pres_same w w' Hs Hg) as [A B]. split; [exact A|]. split; [unfold NA; now rewrite Hs|exact B]. Qed.
Lemma PN_stay : forall w, NA w -> PN w w.
Proof. intros w. apply PN_same; repeat split. Qed.
Lemma PN_hd : forall w, PN w (w_hd w).
Proof. intros w. destruct (Pres_hd w) as [A B]. split; [exact A|]. split; [reflexivity|exact B]. Qed.
Lemma PN_with : forall w w' (D : Prop), PN w w' -> D ->
  (w_poison w' = false -> w_poison w = false) /\ NA w' /\ (G w -> G w') /\ D.
Proof. intros w w' D [A [B C]] Hd. auto. Qed.

Lemma set_written_reader : forall s p x len, s_reader (fst (set_written s p x len)) = s_reader s.
Proof. intros. now rewrite (set_written_ob s p x len _ _ (surjective_pairing _)). Qed.
Lemma complete_flush_reader : forall s p now, s_reader (fst (complete_flush s p now)) = s_reader s.
Proof. intros. now rewrite (proj1 (complete_flush_ob_rt s p now _ _ (surjective_pairing _))). Qed.

Lemma Pres_tail : forall w w', same_ghost w w' -> (WInv (w_sess w) -> WInv (w_sess w')) ->
  (G w -> w_poison w = false -> w_live w = true -> tail_of (s_ob (w_sess w')) = tail_of (s_ob (w_sess w)) /\ Jinv w') ->
  Pres w w'.
Proof.
  intros w w' [Hw [Hl Hp]] HI Hq. split; [now rewrite Hp|]. intros Gw. pose proof Gw as [I HW]. split; [auto|].
  intros Hp2. rewrite Hp in Hp2. destruct (HW Hp2) as [D L]. split.
  - destruct D as [fs [t [Ff [Ew Pt]]]]. exists fs, t. rewrite Hw. repeat split; assumption.
  - rewrite Hl. intros Hlv. destruct (L Hlv) as [[fs [Ff Ew]] _]. destruct (Hq Gw Hp2 Hlv) as [Ht J]. split; [|exact J].
    exists fs. split; [exact Ff|]. now rewrite Hw, Ht.
Qed.

Lemma Pres_sess : forall w s1 l,
  sstep (w_sess w) l s1 -> tail_of (s_ob s1) = tail_of (s_ob (w_sess w)) ->
  (npart (s_ob s1) <= npart (s_ob (w_sess w)))%nat -> s_reader s1 = s_reader (w_sess w) ->
  Pres w (upd_sess w s1).
Proof.
  intros w s1 l Hstep Ht Hq Hr. apply Pres_tail; [repeat split|intros I; eapply WInv_step; eassumption|].
  intros Gw Hp Hl. split; [exact Ht|]. destruct (G_form w Gw Hp Hl) as [_ J]. unfold Jinv in *. cbn [w_sess upd_sess].
  rewrite Hr. intros Ha. specialize (J Ha). lia.
Qed.
Lemma PN_sess : forall w s1 l,
  sstep (w_sess w) l s1 -> tail_of (s_ob s1) = tail_of (s_ob (w_sess w)) ->
  (npart (s_ob s1) <= npart (s_ob (w_sess w)))%nat -> s_reader s1 = s_reader (w_sess w) -> NA w ->
  PN w (upd_sess w s1).
Proof.
  intros w s1 l Hstep Ht Hq Hr Hna. destruct (Pres_sess w s1 l Hstep Ht Hq Hr) as [A B].
  split; [exact A|]. split; [unfold NA; cbn [w_sess upd_sess]; now rewrite Hr|exact B].
Qed.

Lemma flush_current_pres : forall p now w w' r, NA w ->
  tail_of (s_ob (fst (complete_flush (w_sess w) p now))) = tail_of (s_ob (w_sess w)) ->
  flush_current p now w = (w', r) -> PN w w'.
Proof.
  intros p now w w' r Hna Ht H. unfold flush_current in H. destruct (negb (w_live w)); [injection H as <- <-; now apply PN_stay|].
  destruct (io_flush w) as [w1 fr] eqn:Ef. destruct (io_flush_ghost _ _ _ Ef) as [Hs Hg]. pose proof (PN_same w w1 Hs Hg Hna) as P1.
  destruct fr; [|injection H as <- <-; exact (PN_trans _ _ _ P1 (PN_hd w1))|injection H as <- <-; exact P1].
  apply (PN_trans _ _ _ P1). rewrite <- Hs in Ht.
  assert (w' = upd_sess w1 (fst (complete_flush (w_sess w1) p now))) as ->
    by (destruct (complete_flush (w_sess w1) p now) as [s3 []]; now inversion H).
  apply PN_sess with (l := LOther); [apply SS_flushed|exact Ht|apply npart_complete_flush|apply complete_flush_reader|apply P1].
Qed.

Lemma frames_ok_snoc : forall fs f, frames_ok fs -> is_frame f -> frames_ok (fs ++ [f]).
Proof. intros. apply Forall_app. split; [assumption|constructor; [assumption|constructor]]. Qed.
Lemma concat_snoc : forall (fs : list bytes) f, concat (fs ++ [f]) = concat fs ++ f.
Proof. intros. rewrite concat_app. cbn [concat]. now rewrite app_nil_r. Qed.

(* The transport accepts n more bytes of the entry the engine picked: they extend the prefix the entry owns, and when
   they complete it, it is one more whole packet and the entry owns nothing. *)
Lemma written_PN : forall st p bs k len n w w1,
  WInv (w_sess w) -> NA w -> w_live w = true ->
  next_step (s_ob (w_sess w)) = Some st -> prepare_step (w_sess w) st = PWrite p bs k len ->
  io_write (dropN k bs) w = (w1, WOk n) ->
  let s2 := fst (set_written (w_sess w1) p (k + n) len) in
  PN w (upd_sess w1 s2) /\ (len <= k + n -> npart (s_ob s2) = 0%nat).
Proof.
  intros st p bs k len n w w1 I Hna Hl Hn Ep Ew. destruct (io_write_ghost _ _ _ _ Ew) as [Hs [_ [Hpo [Hwire _]]]]. rewrite Hs.
  destruct (engine_tail (w_sess w) st p bs k len n I Hn Ep) as [T0 [Tl [Tf [T1 Tq]]]].
  set (s2 := fst (set_written (w_sess w) p (k + n) len)) in *. cbv zeta. split; [|exact Tq].
  split; [cbn [w_poison upd_sess]; now rewrite Hpo|].
  assert (Na2 : NA (upd_sess w1 s2)) by (unfold NA, s2; cbn [w_sess upd_sess]; now rewrite set_written_reader).
  split; [exact Na2|]. intros Gw. apply G_live; [exact (WInv_step _ _ _ (SS_written _ _ _ _ _ _ n Hn Ep) I)|].
  intros Hp. split; [|now apply NA_Jinv]. cbn [w_poison upd_sess] in Hp. rewrite Hpo in Hp.
  destruct (G_form w Gw Hp Hl) as [[fs [Ff Ewi]] _]. unfold LiveForm. cbn [w_wire w_sess upd_sess].
  rewrite Hwire, Ewi, T0, <- app_assoc, takeN_takeN_dropN, T1, (sws_prefix _ _ _ _ Tl).
  destruct (N.leb_spec len (k + n)) as [L|L].
  - exists (fs ++ [bs]). split; [now apply frames_ok_snoc|]. rewrite concat_snoc, app_nil_r. f_equal. apply takeN_all. now rewrite Tl.
  - exists fs. split; [exact Ff|reflexivity].
Qed.

Theorem step_pres : forall st now w w' r,
  WInv (w_sess w) -> NA w -> next_step (s_ob (w_sess w)) = Some st ->
  perform_outbound_step st now w = (w', r) ->
  (w_poison w' = false -> w_poison w = false) /\ NA w' /\ (G w -> G w').
Proof.
  intros st now w w' r I Hna Hn H. change (PN w w'). unfold perform_outbound_step in H.
  destruct (prepare_step (w_sess w) st) as [p bs k len|p| |e] eqn:Ep; try (injection H as <- <-; now apply PN_stay).
  2:{ apply (flush_current_pres p now w w' r Hna); [|exact H]. exact (engine_flush_tail (w_sess w) st p now I Hn Ep). }
  destruct (w_live w) eqn:Hl; cbn [negb] in H; [|injection H as <- <-; now apply PN_stay].
  destruct (io_write (dropN k bs) w) as [w1 r0] eqn:Ew.
  destruct (io_write_ghost _ _ _ _ Ew) as [Hs [Hlv [Hpo Hwire]]].
  assert (Same : w_wire w1 = w_wire w -> PN w w1) by (intros Hw; apply PN_same; [exact Hs|repeat split; assumption|exact Hna]).
  destruct r0 as [n| |];
    [|injection H as <- <-; exact (PN_trans _ _ _ (Same Hwire) (PN_hd w1))|injection H as <- <-; exact (Same Hwire)].
  destruct (N.eqb_spec n 0) as [En|En].
  { injection H as <- <-. apply Same. now rewrite (proj1 Hwire), En, takeN_0, app_nil_r. }
  destruct (written_PN st p bs k len n w w1 I Hna Hl Hn Ep Ew) as [P2 Q2].
  destruct (set_written (w_sess w1) p (k + n) len) as [s2 found]. cbn [fst] in P2, Q2.
  destruct (negb found); [injection H as <- <-; exact P2|].
  destruct (N.ltb_spec (k + n) len) as [L|L]; [injection H as <- <-; exact P2|].
  (* the entry is complete and owns nothing, before the flush and after it *)
  apply (PN_trans _ _ _ P2), (flush_current_pres p now _ w' r (proj1 (proj2 P2))); [|exact H].
  apply quiet_tails; [exact (Q2 L)|apply npart_complete_flush].
Qed.

Lemma ping_pres : forall w now, Pres w (upd_sess w (fst (maybe_queue_pingreq (w_sess w) now))) /\
  s_reader (fst (maybe_queue_pingreq (w_sess w) now)) = s_reader (w_sess w).
Proof.
  intros w now. pose proof (SS_ping (w_sess w) now) as St.
  destruct (maybe_queue_pingreq_cases (w_sess w) now _ _ (surjective_pairing _)) as [E | [o [Q [E _]]]]; rewrite E in St |- *.
  - split; [|reflexivity]. exact (Pres_sess w _ _ St eq_refl (le_n _) eq_refl).
  - split; [|reflexivity]. exact (Pres_sess w _ _ St (tail_of_queue_control _ _ _ Q) (npart_queue_control _ _ _ Q) eq_refl).
Qed.

Lemma ping_PN : forall w now, NA w -> PN w (upd_sess w (fst (maybe_queue_pingreq (w_sess w) now))).
Proof.
  intros w now Hna. destruct (ping_pres w now) as [[A B] Hr]. split; [exact A|]. split; [|exact B].
  unfold NA. cbn [w_sess upd_sess]. now rewrite Hr.
Qed.

Theorem flush_outbound_pres : forall fuel w w' r,
  WInv (w_sess w) -> NA w -> flush_outbound fuel w = (w', r) ->
  (w_poison w' = false -> w_poison w = false) /\ NA w' /\ (G w -> G w') /\
  (r = ODone tt -> next_step (s_ob (w_sess w')) = None).
Proof.
  induction fuel as [|f IH]; intros w w' r I Hna H; cbn [flush_outbound] in H.
  { injection H as <- <-. apply PN_with; [now apply PN_stay|discriminate]. }
  pose proof (ping_PN w (w_now w) Hna) as P1. pose proof (WInv_step _ _ _ (SS_ping (w_sess w) (w_now w)) I) as I1.
  destruct (maybe_queue_pingreq (w_sess w) (w_now w)) as [s1 e]. cbn [fst] in P1, I1. set (w1 := upd_sess w s1) in *.
  destruct e as [e|]; [injection H as <- <-; apply PN_with; [exact P1|discriminate]|].
  destruct (next_step (s_ob (w_sess w1))) as [st|] eqn:En; [|injection H as <- <-; apply PN_with; [exact P1|intros _; exact En]].
  destruct (perform_outbound_step st (w_now w) w1) as [w2 r2] eqn:Es.
  pose proof (step_pres st (w_now w) w1 w2 r2 I1 (proj1 (proj2 P1)) En Es) as Q.
  pose proof (PN_trans _ _ _ P1 Q) as P2.
  pose proof (WInv_res _ _ _ _ (perform_outbound_step_wq st (w_now w) w1 En) Es I1) as I2.
  destruct r2 as [b|e| | |]; [|injection H as <- <-; apply PN_with; [exact P2|discriminate]..].
  destruct (IH w2 w' r I2 (proj1 (proj2 Q)) H) as [R1 [R2 [R3 R4]]].
  apply PN_with; [exact (PN_trans _ _ _ P2 (conj R1 (conj R2 R3)))|exact R4].
Qed.

Lemma handle_packet_reader : forall s p, s_reader (fst (handle_packet s p)) = s_reader s.
Proof. intros s p. apply sf_reader, handle_packet_frame. Qed.

(* A complete packet waits in the reader, so nothing is half written (Jinv) and the tail is empty.  The session then
   changes without starting a write and ends with an empty reader; the handle may be latched after that. *)
Lemma taken_pres : forall w s2 w2 w',
  packet_available (s_reader (w_sess w)) = true ->
  sreach (w_sess w) s2 -> packet_available (s_reader s2) = false -> w_sess w2 = s2 -> same_ghost w w2 ->
  (WInv (w_sess w) -> (npart (s_ob s2) <= npart (s_ob (w_sess w)))%nat) ->
  w' = w2 \/ w' = w_hd w2 -> NA w' /\ Pres w w'.
Proof.
  intros w s2 w2 w' Ea [ls Hr] Hna Hs Hg Hq Hw'.
  assert (P2 : Pres w w2).
  { apply Pres_tail; [exact Hg|rewrite Hs; exact (spath_inv WInv WInv_step _ _ _ Hr)|].
    intros Gw Hp Hl. destruct (G_form w Gw Hp Hl) as [_ J]. specialize (J Ea). specialize (Hq (proj1 Gw)).
    unfold Jinv. rewrite Hs. split; [|intros Ha; congruence].
    apply quiet_tails; [exact J|exact Hq]. }
  destruct Hw' as [-> | ->]; split; [unfold NA; now rewrite Hs|exact P2|reflexivity|exact (Pres_trans _ _ _ P2 (Pres_hd w2))].
Qed.

Theorem process_received_pres : forall w w' r, process_received w = (w', r) ->
  (packet_available (s_reader (w_sess w)) = false -> w' = w) /\
  (packet_available (s_reader (w_sess w)) = true -> NA w') /\
  Pres w w'.
Proof.
  intros w w' r H. unfold process_received in H.
  destruct (packet_available (s_reader (w_sess w))) eqn:Ea; cbn [negb] in H.
  2:{ injection H as <- <-. split; [reflexivity|]. split; [discriminate|apply Pres_refl]. }
  split; [discriminate|]. cut (NA w' /\ Pres w w'); [intros [A B]; auto|].
  pose proof (fun s2 w2 w' => taken_pres w s2 w2 w' Ea) as T.
  destruct (take_packet (s_reader (w_sess w))) as [[[r' pl] op]|] eqn:Et; unfold take_packet in Et.
  2:{ unfold packet_available in Ea. destruct (rplen _); discriminate. }
  assert (Hr0 : packet_available r' = false) by (destruct (rplen _); inversion Et; reflexivity).
  set (s1 := set_reader (w_sess w) r') in *. pose proof (SS_reader (w_sess w) r') as St1. fold s1 in St1.
  destruct op as [p|].
  - destruct (handle_packet s1 p) as [s2 hr] eqn:Eh. assert (Es2 : s2 = fst (handle_packet s1 p)) by now rewrite Eh.
    match type of H with context [upd_drained ?a ?b] => set (w2 := upd_drained a b) in * end.
    assert (K : w' = w2 \/ w' = w_hd w2) by (destruct hr as [[]|[]]; inversion H; auto).
    apply (T s2 w2 w'); [|rewrite Es2, handle_packet_reader; exact Hr0|reflexivity|repeat split| |exact K].
    + rewrite Es2. exact (sreach_trans _ _ _ (sreach_step _ _ _ St1) (sreach_step _ _ _ (SS_packet s1 p))).
    + intros I. rewrite Es2. exact (npart_handle_packet s1 p (proj1 (WInv_step _ _ _ St1 I))).
  - injection H as <- <-.
    apply (T s1 (upd_sess w s1)); [exact (sreach_step _ _ _ St1)|exact Hr0|reflexivity|repeat split|intros _; apply le_n|now right].
Qed.

Theorem service_pres : forall now w w' r,
  WInv (w_sess w) -> NA w -> service now w = (w', r) ->
  (w_poison w' = false -> w_poison w = false) /\ NA w' /\ (G w -> G w').
Proof.
  intros now w w' r I Hna H. unfold service in H.
  destruct (ping_timed_out (w_sess w) now); [injection H as <- <-; apply PN_hd|].
  pose proof (ping_PN w now Hna) as P1. pose proof (WInv_step _ _ _ (SS_ping (w_sess w) now) I) as I1.
  destruct (maybe_queue_pingreq (w_sess w) now) as [s1 e]. cbn [fst] in P1, I1. set (w1 := upd_sess w s1) in *.
  destruct e as [e|]; [injection H as <- <-; exact P1|].
  destruct (next_step (s_ob (w_sess w1))) as [st|] eqn:En; [|injection H as <- <-; exact P1].
  exact (PN_trans _ _ _ P1 (step_pres st now w1 w' r I1 (proj1 (proj2 P1)) En H)).
Qed.

Definition DriveOk (w w' : world) (r : outcome progress) : Prop :=
  (w_poison w' = false -> w_poison w = false) /\ (G w -> G w') /\
  ((r = ODone PrIdle \/ r = ODone PrAdvanced) -> NA w' /\ next_step (s_ob (w_sess w')) = None) /\
  (forall e, r = OFail e -> True) /\
  (r <> OFuel -> NA w').

Lemma drive_stop : forall w w' r, PN w w' ->
  (r = ODone PrIdle \/ r = ODone PrAdvanced -> next_step (s_ob (w_sess w')) = None) -> DriveOk w w' r.
Proof. intros w w' r [A [B C]] D. split; [exact A|]. split; [exact C|]. split; [auto|]. split; auto. Qed.
Lemma drive_after : forall w w1 w' r, Pres w w1 -> DriveOk w1 w' r -> DriveOk w w' r.
Proof. intros w w1 w' r [A B] [C [D E]]. split; [auto|]. split; [auto|exact E]. Qed.

Theorem drive_loop_pres : forall fuel adv w w' r,
  WInv (w_sess w) -> drive_loop fuel adv w = (w', r) ->
  (w_poison w' = false -> w_poison w = false) /\ (G w -> G w') /\
  ((r = ODone PrIdle \/ r = ODone PrAdvanced) -> NA w' /\ next_step (s_ob (w_sess w')) = None) /\
  (forall e, r = OFail e -> True) /\
  (r <> OFuel -> NA w').
Proof.
  induction fuel as [|f IH]; intros adv w w' r I H; cbn [drive_loop] in H; change (DriveOk w w' r).
  { injection H as <- <-. split; [auto|]. split; [auto|]. split; [intros [E|E]; discriminate|]. split; [auto|]. intros E. now elim E. }
  destruct (process_received w) as [w1 r1] eqn:Ep.
  destruct (process_received_pres w w1 r1 Ep) as [Pa [Pb Pc]].
  pose proof (WInv_res _ _ _ _ (process_received_wq w) Ep I) as I1.
  (* w1 has an empty reader: a packet was waiting and has been taken, or none was and w1 = w *)
  assert (P1 : PN w w1).
  { destruct Pc as [Pc Pd]. split; [exact Pc|]. split; [|exact Pd].
    destruct (packet_available (s_reader (w_sess w))) eqn:Ea; [now apply Pb|]. now rewrite (Pa eq_refl). }
  assert (Stop : forall x, x <> ODone PrIdle -> x <> ODone PrAdvanced -> DriveOk w w1 x).
  { intros x X1 X2. apply drive_stop; [exact P1|]. intros [E|E]; contradiction. }
  destruct r1 as [[p|]|e| | |]; try (injection H as <- <-; apply Stop; discriminate).
  destruct (packet_available (s_reader (w_sess w))) eqn:Ea; [exact (drive_after _ _ _ _ Pc (IH true w1 w' r I1 H))|].
  rewrite (Pa eq_refl) in *. clear Stop.
  destruct (service (w_now w) w) as [w2 r2] eqn:Es.
  pose proof (service_pres (w_now w) w w2 r2 I Ea Es) as Q.
  pose proof (WInv_res _ _ _ _ (service_wq (w_now w) w) Es I) as I2.
  destruct r2 as [b|e| | |]; [|injection H as <- <-; apply drive_stop; [exact Q|intros [E|E]; discriminate]..].
  destruct (next_step (s_ob (w_sess w2))) as [st|] eqn:En.
  - exact (drive_after _ _ _ _ (PN_Pres _ _ Q) (IH (adv || b) w2 w' r I2 H)).
  - injection H as <- <-. apply drive_stop; [exact Q|intros _; exact En].
Qed.

Lemma fill_same : forall fuel dl w,
  same_ghost w (fst (fill_packet_reader fuel dl w)) /\ s_ob (w_sess (fst (fill_packet_reader fuel dl w))) = s_ob (w_sess w).
Proof.
  intros. destruct (fill_reads fuel dl w) as [[[] [Hw _]] [r Hs]].
  split; [repeat split; assumption|now rewrite Hs].
Qed.

Theorem fill_pres : forall fuel dl w,
  (w_live w = true -> npart (s_ob (w_sess w)) = 0%nat) -> Pres w (fst (fill_packet_reader fuel dl w)).
Proof.
  intros fuel dl w Hq. destruct (fill_same fuel dl w) as [Hg Ho]. apply Pres_tail; [exact Hg|apply WInv_wq, fill_wq|].
  intros _ _ Hl. unfold Jinv. rewrite Ho. split; [reflexivity|intros _; now apply Hq].
Qed.

Lemma receive_window_na : forall r r' win, receive_buffer r = (r', Some win) -> win <> 0 -> packet_available r' = false.
Proof.
  intros r r' win H Hw. unfold receive_buffer in H.
  destruct (match rplen r with None => probe r | Some _ => Some r end) as [r1|]; [|inversion H].
  unfold packet_available. destruct (rplen r1) as [pl|] eqn:Ep.
  - destruct (N.leb_spec pl (rcap r1)); inversion H; subst. rewrite Ep. destruct (N.leb_spec pl (read_bytes r')); [lia|reflexivity].
  - destruct (N.leb_spec (read_bytes r1 + 1) (rcap r1)); inversion H; subst. now rewrite Ep.
Qed.

Lemma fill_go_na : forall fuel y dl w w' fr, fill_go fuel y dl w = (w', fr) ->
  match fr with FillOk | FillFuel | FillErr _ => True | _ => NA w' end.
Proof.
  induction fuel as [|f IH]; intros y dl w w' fr H; cbn [fill_go] in H; [inversion H; exact I|].
  destruct (packet_available _); [inversion H; exact I|].
  destruct (receive_buffer (s_reader (w_sess w))) as [r' ow] eqn:Er. destruct ow as [win|]; [|inversion H; exact I].
  destruct (N.eqb_spec win 0) as [Ew|Ew]; [inversion H; exact I|].
  pose proof (receive_window_na _ _ _ Er Ew) as Hna.
  set (w0 := upd_sess w (set_reader (w_sess w) r')) in *.
  destruct (timer_fired y dl w0); [injection H as <- <-; unfold NA; exact Hna|].
  destruct (io_read win dl w0) as [w1 r] eqn:Ei.
  pose proof (io_read_sess win dl w0) as [Hs _]. rewrite Ei in Hs. cbn [fst] in Hs.
  destruct r as [d| | |].
  - destruct d as [|x t]; [inversion H; exact I|]. eapply IH. exact H.
  - inversion H; exact I.
  - injection H as <- <-. unfold NA. rewrite Hs. exact Hna.
  - injection H as <- <-. unfold NA. rewrite Hs. exact Hna.
Qed.

Theorem wait_keeps : forall fuel w w' r,
  WInv (w_sess w) -> wait_for_progress fuel w = (w', r) -> Pres w w' /\ (r <> OFuel -> NAl w').
Proof.
  induction fuel as [|f IH]; intros w w' r I H; cbn [wait_for_progress] in H.
  { injection H as <- <-. split; [apply Pres_refl|]. intros E. now elim E. }
  destruct (drive_packet (S f) w) as [w1 r1] eqn:Ed. unfold drive_packet in Ed.
  destruct (w_live w) eqn:Hl; cbn [negb] in Ed.
  2:{ inversion Ed; subst. injection H as <- <-. split; [apply Pres_refl|]. intros _ Hl'. congruence. }
  destruct (drive_loop_pres (S f) false w w1 r1 I Ed) as [D1 [D2 [D3 [_ D5]]]]. pose proof (conj D1 D2 : Pres w w1) as P1.
  pose proof (WInv_res _ _ _ _ (drive_loop_wq (S f) false w) Ed I) as I1.
  destruct r1 as [[| |q]|e| | |];
    [|injection H as <- <-; split; [exact P1|]; intros E _; apply D5; (discriminate || exact E)..].
  (* the loop went idle: nothing is half written, so the reader may be filled *)
  destruct (D3 (or_introl eq_refl)) as [Na1 Nn].
  destruct (w_live w1) eqn:Hl1; cbn [negb] in H; [|injection H as <- <-; split; [exact P1|intros _ _; exact Na1]].
  set (dl := next_deadline (s_rt (w_sess w1))) in *.
  destruct (fill_packet_reader (S f) dl w1) as [w2 fr] eqn:Ef.
  pose proof (fill_pres (S f) dl w1 (fun _ => next_none_npart _ Nn)) as F. rewrite Ef in F. cbn [fst] in F.
  pose proof (Pres_trans _ _ _ P1 F) as P2. pose proof (fill_go_na _ false _ _ _ _ Ef) as Fn.
  pose proof (WInv_res _ _ _ _ (fill_wq (S f) dl w1) Ef I1) as I2.
  destruct fr as [|e| | |];
    try (destruct (IH w2 w' r I2 H) as [R1 R2]; exact (conj (Pres_trans _ _ _ P2 R1) R2));
    injection H as <- <-; (split; [try exact P2|]).
  - exact (Pres_trans _ _ _ P2 (Pres_hd w2)).
  - intros _ Hd. discriminate Hd.
  - intros _ _. exact Fn.
  - intros E. now elim E.
Qed.

Theorem wait_pres : forall fuel w w' r,
  WInv (w_sess w) -> wait_for_progress fuel w = (w', r) ->
  (w_poison w' = false -> w_poison w = false) /\ (G w -> G w') /\ (r <> OFuel -> NAl w \/ w_live w = true -> NAl w').
Proof. intros fuel w w' r I H. destruct (wait_keeps fuel w w' r I H) as [[A B] C]. auto. Qed.

Definition OpOk {A} (w w' : world) (r : outcome A) : Prop := (G w -> G w') /\ (r <> OFuel -> NAl w').

Lemma OpOk_na : forall {A} w w' (x : outcome A), (G w -> G w') -> NA w' -> OpOk w w' x.
Proof. intros A w w' x HG Hna. split; [exact HG|]. intros _ _. exact Hna. Qed.
Lemma OpOk_dead : forall {A} w w' (x : outcome A), (G w -> G w') -> w_live w' = false -> OpOk w w' x.
Proof. intros A w w' x HG Hd. split; [exact HG|]. intros _ Hl. congruence. Qed.
Lemma OpOk_hd : forall {A} w w' (x : outcome A), (G w -> G w') -> OpOk w (w_hd w') x.
Proof. intros A w w' x HG. apply OpOk_dead; [|reflexivity]. intros Gw. apply (proj2 (Pres_hd w')). auto. Qed.

Lemma OpOk_from : forall {A B} w w' (r1 : outcome A) (r : outcome B),
  (G w -> G w') -> (r1 <> OFuel -> NAl w') -> (r1 = OFuel -> r = OFuel) -> OpOk w w' r.
Proof. intros A B w w' r1 r HG C F. split; [exact HG|]. intros Hr. apply C. intros E. exact (Hr (F E)). Qed.

Theorem op_poll_pres : forall fuel w w' r, WInv (w_sess w) -> NAl w -> op_poll fuel w = (w', r) -> OpOk w w' r.
Proof.
  intros fuel w w' r I Hna H. unfold op_poll in H. destruct (wait_for_progress fuel w) as [w1 r1] eqn:Ew.
  destruct (wait_keeps fuel w w1 r1 I Ew) as [[_ B] C].
  destruct r1 as [[| |p]|e| | |]; injection H as <- <-; apply (OpOk_from _ _ _ _ B C); (discriminate || auto).
Qed.

Theorem op_recv_pres : forall fuel w w' r, WInv (w_sess w) -> NAl w -> op_recv fuel w = (w', r) -> OpOk w w' r.
Proof.
  induction fuel as [|f IH]; intros w w' r I Hna H; cbn [op_recv] in H.
  { injection H as <- <-. split; [auto|]. intros E. now elim E. }
  destruct (wait_for_progress (S f) w) as [w1 r1] eqn:Ew.
  destruct (wait_keeps (S f) w w1 r1 I Ew) as [[_ B] C].
  pose proof (WInv_res _ _ _ _ (wait_for_progress_wq (S f) w) Ew I) as I1.
  destruct r1 as [[| |p]|e| | |]; try (injection H as <- <-; apply (OpOk_from _ _ _ _ B C); (discriminate || auto)).
  assert (Na1 : NAl w1) by (apply C; discriminate).
  destruct (IH w1 w' r I1 Na1 H) as [B2 C2]. split; [auto|exact C2].
Qed.

Theorem op_drive_pres : forall fuel w w' r, WInv (w_sess w) -> NAl w -> op_drive fuel w = (w', r) -> OpOk w w' r.
Proof.
  intros fuel w w' r I Hna H. unfold op_drive in H. destruct (drive_packet fuel w) as [w1 r1] eqn:Ed. unfold drive_packet in Ed.
  destruct (w_live w) eqn:Hl; cbn [negb] in Ed.
  - destruct (drive_loop_pres fuel false w w1 r1 I Ed) as [_ [D2 [_ [_ D5]]]].
    destruct r1 as [[| |p]|e| | |]; injection H as <- <-; apply (OpOk_from _ _ _ _ D2 (fun E _ => D5 E)); (discriminate || auto).
  - inversion Ed; subst. injection H as <- <-. split; [auto|]. intros _ Hl'. congruence.
Qed.

(* direct writes (CONNECT, QoS 0 PUBLISH, DISCONNECT): what reaches the wire is a prefix of the packet, all of it on success *)
Lemma write_all_sent : forall fuel bs w w' r, write_all fuel bs w = (w', r) ->
  w_sess w' = w_sess w /\ w_live w' = w_live w /\ w_poison w' = w_poison w /\
  exists k, k <= lenN bs /\ w_wire w' = w_wire w ++ takeN k bs /\ (r = ODone tt -> k = lenN bs).
Proof.
  intros fuel bs w w' r H. pose proof (write_all_frame fuel bs w) as F. rewrite H in F. destruct F.
  split; [assumption|]. split; [assumption|]. split; [assumption|]. clear - H.
  revert bs w w' r H. induction fuel as [|f IH]; intros bs w w' r H; cbn [write_all] in H.
  all: assert (Stop : forall x (o : outcome unit), w_wire x = w_wire w -> (o = ODone tt -> 0 = lenN bs) ->
         exists k, k <= lenN bs /\ w_wire x = w_wire w ++ takeN k bs /\ (o = ODone tt -> k = lenN bs))
    by (intros x o Hx Ho; exists 0; rewrite takeN_0, app_nil_r; split; [apply N.le_0_l|]; split; [exact Hx|exact Ho]).
  { injection H as <- <-. apply Stop; [reflexivity|discriminate]. }
  destruct bs as [|b t]; [injection H as <- <-; apply Stop; reflexivity|].
  destruct (io_write (b :: t) w) as [w1 r0] eqn:Ew. apply io_write_spec in Ew as [_ Hw].
  destruct r0 as [n| |]; try (injection H as <- <-; apply Stop; [exact Hw|discriminate]).
  destruct Hw as [Hw Hn].
  destruct (N.eqb_spec n 0) as [E0|_]; [injection H as <- <-; apply Stop; [|discriminate]; now rewrite Hw, E0, takeN_0, app_nil_r|].
  destruct (IH _ _ _ _ H) as [k [K1 [K2 K3]]]. rewrite lenN_dropN in K1, K3.
  exists (n + k). split; [lia|]. split; [now rewrite K2, Hw, <- app_assoc, takeN_takeN_dropN|]. intros E. specialize (K3 E). lia.
Qed.

Lemma write_all_wire : forall fuel B k w w' r,
  k <= lenN B -> write_all fuel (dropN k B) w = (w', r) ->
  w_sess w' = w_sess w /\ w_live w' = w_live w /\ w_poison w' = w_poison w /\
  exists k', k <= k' /\ k' <= lenN B /\ w_wire w' = w_wire w ++ takeN (k' - k) (dropN k B) /\
             (r = ODone tt -> k' = lenN B).
Proof.
  intros fuel B k w w' r Hk H. destruct (write_all_sent _ _ _ _ _ H) as [-> [-> [-> [j [J1 [J2 J3]]]]]]. rewrite lenN_dropN in J1, J3.
  split; [reflexivity|]. split; [reflexivity|]. split; [reflexivity|].
  exists (j + k). rewrite N.add_sub. split; [lia|]. split; [lia|]. split; [exact J2|]. intros E. specialize (J3 E). lia.
Qed.

Lemma mark_partial_fields : forall b a l,
  w_sess (mark_partial b a l) = w_sess a /\ w_wire (mark_partial b a l) = w_wire a /\ w_live (mark_partial b a l) = w_live a /\
  (w_poison (mark_partial b a l) = false -> w_poison a = false).
Proof. intros. destruct (mark_partial_cases b a l) as [-> | ->]; repeat split; auto. discriminate. Qed.

Lemma lenN_app_sub : forall a b : bytes, lenN (a ++ b) - lenN a = lenN b.
Proof. intros. rewrite lenN_app. lia. Qed.

(* the flag of `mark_partial` stays clear exactly when the write was all or nothing *)
Lemma all_or_nothing : forall k n, k <= n -> (0 <? k) && (k <? n) = false -> k = 0 \/ k = n.
Proof. intros k n L H. destruct (N.ltb_spec 0 k); destruct (N.ltb_spec k n); cbn [andb] in H; try discriminate; lia. Qed.

(* A direct write of the packet bs on a live handle with nothing half written, however far it got.  The caller goes on
   with w1 when everything was written, latches (w_hd) on a transport error, and otherwise leaves through mark_partial. *)
Lemma direct_write : forall fuel bs w w1 r1,
  w_live w = true -> npart (s_ob (w_sess w)) = 0%nat -> is_frame bs -> write_all fuel bs w = (w1, r1) ->
  w_sess w1 = w_sess w /\ (G w -> G (mark_partial w w1 (lenN bs)) /\ G (w_hd w1) /\ (r1 = ODone tt -> G w1)).
Proof.
  intros fuel bs w w1 r1 Hl Hq Hf Ew.
  destruct (write_all_sent fuel bs w w1 r1 Ew) as [Hs [Hlv [Hp [k [Hk [Hw Hdone]]]]]].
  split; [exact Hs|]. intros Gw. pose proof (proj1 Gw) as I.
  assert (Hlen : lenN (w_wire w1) - lenN (w_wire w) = k) by (rewrite Hw, lenN_app_sub, lenN_takeN; exact (N.min_l _ _ Hk)).
  (* the wire before the write: whole packets and nothing else *)
  assert (Base : w_poison w = false -> exists fs, frames_ok fs /\ w_wire w = concat fs /\ Jinv w).
  { intros Hp0. destruct (G_form w Gw Hp0 Hl) as [[fs [Ff Ew0]] J]. rewrite (npart_zero_tail _ Hq), app_nil_r in Ew0. now exists fs. }
  assert (GLive : forall x, w_sess x = w_sess w -> w_wire x = w_wire w1 -> (w_poison x = false -> w_poison w = false /\ (k = 0 \/ k = lenN bs)) -> G x).
  { intros x Xs Xw Xp. apply G_live; [rewrite Xs; exact I|]. intros Hpx. destruct (Xp Hpx) as [Hp0 Hc].
    destruct (Base Hp0) as [fs [Ff [Ew0 J]]]. split; [|unfold Jinv; rewrite Xs; exact J].
    unfold LiveForm. rewrite Xs, Xw, Hw, Ew0, (npart_zero_tail _ Hq). destruct Hc as [-> | ->].
    - exists fs. split; [exact Ff|]. now rewrite takeN_0, !app_nil_r.
    - exists (fs ++ [bs]). split; [now apply frames_ok_snoc|]. rewrite concat_snoc, app_nil_r, takeN_all by apply N.le_refl. reflexivity. }
  split; [|split].
  - destruct (mark_partial_fields w w1 (lenN bs)) as [Ms [Mw _]]. apply GLive; [congruence|exact Mw|].
    unfold mark_partial. rewrite Hlen. destruct ((0 <? k) && (k <? lenN bs)) eqn:Eb; [discriminate|].
    intros Hp1. split; [congruence|exact (all_or_nothing _ _ Hk Eb)].
  - apply G_dead; [eapply WInv_wq; [apply hd_wq|]; now rewrite Hs|reflexivity|].
    intros Hp1. cbn [w_hd w_poison upd_live upd_sess] in Hp1. rewrite Hp in Hp1. destruct (Base Hp1) as [fs [Ff [Ew0 _]]].
    exists fs, (takeN k bs). split; [exact Ff|]. split; [cbn [w_hd w_wire upd_live upd_sess]; now rewrite Hw, Ew0|].
    right. exists bs, k. split; [exact Hf|reflexivity].
  - intros E. apply GLive; [exact Hs|reflexivity|]. intros Hp1. split; [congruence|right; exact (Hdone E)].
Qed.

Lemma direct_stopped : forall {A} fuel bs w w1 r1 (x : outcome A),
  NA w -> w_live w = true -> npart (s_ob (w_sess w)) = 0%nat -> is_frame bs -> write_all fuel bs w = (w1, r1) ->
  OpOk w (mark_partial w w1 (lenN bs)) x /\ OpOk w (w_hd w1) x.
Proof.
  intros A fuel bs w w1 r1 x Hna Hl Hq Hf Ew. destruct (direct_write fuel bs w w1 r1 Hl Hq Hf Ew) as [Hs DW]. split.
  - apply OpOk_na; [intros Gw; apply (DW Gw)|]. unfold NA. now rewrite (proj1 (mark_partial_fields w w1 (lenN bs))), Hs.
  - apply OpOk_dead; [intros Gw; apply (DW Gw)|reflexivity].
Qed.
Lemma direct_flushed : forall fuel bs w w1 w2 fr,
  NA w -> w_live w = true -> npart (s_ob (w_sess w)) = 0%nat -> is_frame bs ->
  write_all fuel bs w = (w1, ODone tt) -> io_flush w1 = (w2, fr) -> (G w -> G w2) /\ NA w2.
Proof.
  intros fuel bs w w1 w2 fr Hna Hl Hq Hf Ew Efl. destruct (direct_write fuel bs w w1 _ Hl Hq Hf Ew) as [Hs DW].
  destruct (io_flush_ghost _ _ _ Efl) as [Hs2 Hg2]. split; [|unfold NA; now rewrite Hs2, Hs].
  intros Gw. eapply G_same; [exact Hs2|exact Hg2|]. now apply (DW Gw).
Qed.

Theorem finish_mid_pres : forall fuel w m w' r,
  WInv (w_sess w) -> NA w ->
  (forall bs, m = MDirect bs -> is_frame bs /\ w_live w = true /\ npart (s_ob (w_sess w)) = 0%nat) ->
  finish_mid fuel w m = (w', r) -> OpOk w w' r.
Proof.
  intros fuel w m w' r I Hna Hfr0 H. destruct m as [e|o|bs]; cbn [finish_mid] in H.
  - injection H as <- <-. now apply OpOk_na.
  - destruct (flush_outbound fuel w) as [w1 r1] eqn:Ef. destruct (flush_outbound_pres fuel w w1 r1 I Hna Ef) as [_ [B [C _]]].
    destruct r1 as [u|e| | |]; cbn [bindu] in H; injection H as <- <-; now apply OpOk_na.
  - destruct (Hfr0 bs eq_refl) as [Hfr [Hl Hq]]. destruct (write_all fuel bs w) as [w1 r1] eqn:Ew.
    pose proof (fun x : outcome (option op) => direct_stopped fuel bs w w1 r1 x Hna Hl Hq Hfr Ew) as D.
    destruct r1 as [[]|[]| | |]; [|injection H as <- <-; apply D..].
    destruct (io_flush w1) as [w2 fr] eqn:Efl. destruct (direct_flushed fuel bs w w1 w2 fr Hna Hl Hq Hfr Ew Efl) as [G2 Na2].
    destruct fr; injection H as <- <-; [|now apply OpOk_hd|now apply OpOk_na].
    apply OpOk_na; [|exact Na2]. intros Gw.
    exact (proj2 (Pres_sess w2 _ LOther (SS_activity _ _) eq_refl (le_n _) eq_refl) (G2 Gw)).
Qed.

Lemma publish_middle_reader : forall s live r, s_reader (fst (publish_middle s live r)) = s_reader s.
Proof. intros s live r. eapply sf_reader, mid_frame, (publish_middle_out s live r _ _ (surjective_pairing _)). Qed.

Lemma enqueue_middle_reader : forall s k enc, s_reader (fst (enqueue_middle s k enc)) = s_reader s.
Proof. intros s k enc. eapply sf_reader, mid_frame, (enqueue_middle_out s k enc _ _ (surjective_pairing _)). Qed.

Lemma publish_middle_direct : forall s live r s' bs, publish_middle s live r = (s', MDirect bs) -> is_frame bs /\ live = true.
Proof.
  intros s live r s' bs H. pose proof (publish_middle_out _ _ _ _ _ H) as M. inversion M as [| |? _ Hl [off E] _| | |]; subst.
  split; [|reflexivity]. eexists. exact (proj1 (enc_publish_frame _ _ _ _ E)).
Qed.

Lemma middle_pres : forall w1 s2 l,
  WInv (w_sess w1) -> sstep (w_sess w1) l s2 -> (npart (s_ob s2) <= npart (s_ob (w_sess w1)))%nat ->
  s_reader s2 = s_reader (w_sess w1) -> npart (s_ob (w_sess w1)) = 0%nat ->
  Pres w1 (upd_sess w1 s2) /\ npart (s_ob s2) = 0%nat.
Proof.
  intros w1 s2 l I Hst Hq Hr Hz. split; [|lia].
  eapply Pres_sess; [exact Hst|exact (quiet_tails _ _ Hz Hq)|exact Hq|exact Hr].
Qed.

(* publish, subscribe and unsubscribe share their shape: pre-flush, the synchronous middle, then finish_mid *)
Lemma request_op_pres : forall fuel w w' (r : outcome (option op)) (mid : session -> bool -> session * midres) E Dir dec lv l,
  WInv (w_sess w) -> NA w ->
  (forall s live, sstep s l (fst (mid s live))) ->
  (forall s live, mid_out (E s) (Dir s) dec (lv live) s (fst (mid s live)) (snd (mid s live))) ->
  (forall s live bs, snd (mid s live) = MDirect bs -> is_frame bs /\ live = true) ->
  bindu (flush_outbound fuel w) (fun w1 => let '(s2, m) := mid (w_sess w1) (w_live w1) in finish_mid fuel (upd_sess w1 s2) m) = (w', r) ->
  OpOk w w' r.
Proof.
  intros fuel w w' r mid E Dir dec lv l I Hna Hst Heff Hdir H.
  destruct (flush_outbound fuel w) as [w1 r1] eqn:Ef. destruct (flush_outbound_pres fuel w w1 r1 I Hna Ef) as [_ [B [C D]]].
  pose proof (WInv_res _ _ _ _ (flush_outbound_wq fuel w) Ef I) as I1.
  destruct r1 as [u|e| | |]; cbn [bindu] in H;
    try (injection H as <- <-; split; [exact C|]; intros _ _; exact B).
  specialize (D ltac:(destruct u; reflexivity)).
  assert (Hz : npart (s_ob (w_sess w1)) = 0%nat) by now apply next_none_npart.
  specialize (Hst (w_sess w1) (w_live w1)). specialize (Heff (w_sess w1) (w_live w1)). specialize (Hdir (w_sess w1) (w_live w1)).
  destruct (mid (w_sess w1) (w_live w1)) as [s2 m]. cbn [fst snd] in Hst, Heff, Hdir.
  assert (Hr : s_reader s2 = s_reader (w_sess w1)) by (eapply sf_reader, mid_frame, Heff).
  destruct (middle_pres w1 s2 l I1 Hst (npart_mid _ _ _ _ _ _ _ Heff (proj1 I1)) Hr Hz) as [[_ P2] Hz2].
  assert (I2 : WInv (w_sess (upd_sess w1 s2))) by (eapply WInv_step; [exact Hst|exact I1]).
  assert (Na2 : NA (upd_sess w1 s2)) by (unfold NA; cbn [w_sess upd_sess]; rewrite Hr; exact B).
  destruct (finish_mid_pres fuel (upd_sess w1 s2) m w' r I2 Na2) as [F2 F3]; [|exact H|].
  - intros bs ->. destruct (Hdir bs eq_refl) as [Hf Hlv]. split; [exact Hf|]. split; [exact Hlv|exact Hz2].
  - split; [auto|exact F3].
Qed.

Theorem op_publish_pres : forall fuel rq w w' r, WInv (w_sess w) -> NAl w -> op_publish fuel rq w = (w', r) -> OpOk w w' r.
Proof.
  intros fuel rq w w' r I Hna H. unfold op_publish in H.
  destruct (w_live w) eqn:Hl; cbn [negb] in H; [|injection H as <- <-; now apply OpOk_dead].
  refine (request_op_pres fuel w w' r (fun s live => publish_middle s live rq) _ _ _ _ LOther I (Hna Hl) _ _ _ H).
  - intros s live. apply SS_publish.
  - intros s live. exact (publish_middle_out s live rq _ _ (surjective_pairing _)).
  - intros s live bs E. eapply publish_middle_direct. rewrite <- E. apply surjective_pairing.
Qed.

Lemma enqueue_not_direct : forall s k enc s' bs, enqueue_middle s k enc <> (s', MDirect bs).
Proof. intros s k enc s' bs H. pose proof (enqueue_middle_out _ _ _ _ _ H) as M. inversion M. contradiction. Qed.

Lemma enqueue_op_pres : forall fuel w w' (r : outcome (option op)) k enc l,
  WInv (w_sess w) -> NA w ->
  (forall s, sstep s l (fst (enqueue_middle s k enc))) ->
  bindu (flush_outbound fuel w) (fun w1 => let '(s2, m) := enqueue_middle (w_sess w1) k enc in finish_mid fuel (upd_sess w1 s2) m) = (w', r) ->
  OpOk w w' r.
Proof.
  intros fuel w w' r k enc l I Hna Hst H.
  refine (request_op_pres fuel w w' r (fun s _ => enqueue_middle s k enc) _ _ _ _ l I Hna _ _ _ H).
  - intros s live. apply Hst.
  - intros s live. exact (enqueue_middle_out s k enc _ _ (surjective_pairing _)).
  - intros s live bs E. exfalso. eapply (enqueue_not_direct s k enc). rewrite <- E. apply surjective_pairing.
Qed.

Theorem op_subscribe_pres : forall fuel t ps w w' r, WInv (w_sess w) -> NAl w -> op_subscribe fuel t ps w = (w', r) -> OpOk w w' r.
Proof.
  intros fuel t ps w w' r I Hna H. unfold op_subscribe in H.
  destruct (w_live w) eqn:Hl; cbn [negb] in H; [|injection H as <- <-; now apply OpOk_dead].
  specialize (Hna Hl).
  destruct t as [|t0 ts]; [injection H as <- <-; now apply OpOk_na|].
  destruct (negb _); [injection H as <- <-; now apply OpOk_na|].
  unfold subscribe_middle in H. eapply (enqueue_op_pres fuel w w' r _ _ LOther I Hna); [|exact H].
  intros s. exact (SS_subscribe s (t0 :: ts) ps).
Qed.

Theorem op_unsubscribe_pres : forall fuel t ps w w' r, WInv (w_sess w) -> NAl w -> op_unsubscribe fuel t ps w = (w', r) -> OpOk w w' r.
Proof.
  intros fuel t ps w w' r I Hna H. unfold op_unsubscribe in H.
  destruct (w_live w) eqn:Hl; cbn [negb] in H; [|injection H as <- <-; now apply OpOk_dead].
  specialize (Hna Hl).
  destruct t as [|t0 ts]; [injection H as <- <-; now apply OpOk_na|].
  destruct (negb _); [injection H as <- <-; now apply OpOk_na|].
  unfold unsubscribe_middle in H. eapply (enqueue_op_pres fuel w w' r _ _ LOther I Hna); [|exact H].
  intros s. exact (SS_unsubscribe s (t0 :: ts) ps).
Qed.

Lemma disconnect_prepare_frame : forall s d bs, disconnect_prepare s d = DPOk bs -> is_frame bs.
Proof.
  intros s d bs H. unfold disconnect_prepare in H. destruct (match dq_props d with Some l => _ | None => false end); [discriminate|].
  destruct (enc_disconnect CONTROL_PACKET_LEN d) as [off b|se] eqn:E; [|discriminate]. destruct (too_large _ _); [discriminate|].
  inversion H; subst. eexists. exact (proj1 (enc_disconnect_frame _ _ _ _ E)).
Qed.

(* under a set flag only the session invariant is asked for *)
Lemma OpOk_poisoned : forall {A} w w' (x : outcome A), WInv (w_sess w') -> w_poison w' = true -> NAl w' -> OpOk w w' x.
Proof. intros A w w' x I Hp Hn. split; [|intros _; exact Hn]. intros _. split; [exact I|]. intros Hx. congruence. Qed.

(* disconnect(): the DISCONNECT is written directly; when a queued packet is half written the ghost flag is set
   (K01b), and so it is when the write stops half way with the handle still live (K01c) *)
Theorem op_disconnect_pres : forall fuel d w w' r, WInv (w_sess w) -> NAl w -> op_disconnect fuel d w = (w', r) -> OpOk w w' r.
Proof.
  intros fuel d w w' r I Hna H. pose proof (WInv_res _ _ _ _ (run_wq _ _ _ (op_disconnect_run (fun _ => True) fuel d w)) H I) as I'.
  unfold op_disconnect in H.
  destruct (w_live w) eqn:Hl; cbn [negb] in H; [|injection H as <- <-; now apply OpOk_dead].
  specialize (Hna Hl).
  destruct (disconnect_prepare (w_sess w) d) as [e|bs] eqn:Ed; [injection H as <- <-; now apply OpOk_na|].
  pose proof (disconnect_prepare_frame _ _ _ Ed) as Hfr.
  destruct (has_partial (s_ob (w_sess w))) eqn:Ehp.
  - (* K01b: the flag is set before the write, and nothing that follows clears it *)
    set (w0 := upd_poison w true) in *.
    destruct (write_all fuel bs w0) as [w1 r1] eqn:Ew.
    destruct (write_all_sent fuel bs w0 w1 r1 Ew) as [Hs [_ [Hp _]]].
    assert (Na1 : NA w1) by (unfold NA; rewrite Hs; exact Hna).
    assert (Mk : w_poison (mark_partial w0 w1 (lenN bs)) = true /\ NAl (mark_partial w0 w1 (lenN bs))).
    { destruct (mark_partial_cases w0 w1 (lenN bs)) as [-> | ->]; (split; [|intros _; exact Na1]); [exact Hp|reflexivity]. }
    destruct r1 as [u|e| | |]; try (injection H as <- <-; apply OpOk_poisoned; [exact I'|apply Mk|apply Mk]).
    + destruct (io_flush w1) as [w2 fr] eqn:Efl. destruct (io_flush_ghost _ _ _ Efl) as [Hs2 [_ [_ Hp2]]].
      assert (Hp3 : w_poison w2 = true) by now rewrite Hp2.
      destruct fr; injection H as <- <-.
      * apply OpOk_poisoned; [exact I'|exact Hp3|intros Hd; discriminate Hd].
      * apply OpOk_poisoned; [exact I'|exact Hp3|intros Hd; discriminate Hd].
      * apply OpOk_poisoned; [exact I'|exact Hp3|intros _; unfold NA; now rewrite Hs2].
    + injection H as <- <-. apply OpOk_poisoned; [exact I'|exact Hp|intros Hd; discriminate Hd].
  - assert (Hq : npart (s_ob (w_sess w)) = 0%nat) by (now apply has_partial_npart).
    destruct (write_all fuel bs w) as [w1 r1] eqn:Ew.
    pose proof (fun x : outcome unit => direct_stopped fuel bs w w1 r1 x Hna Hl Hq Hfr Ew) as D.
    destruct r1 as [[]|e| | |]; [|injection H as <- <-; apply D..].
    destruct (io_flush w1) as [w2 fr] eqn:Efl. destruct (direct_flushed fuel bs w w1 w2 fr Hna Hl Hq Hfr Ew Efl) as [G2 Na2].
    destruct fr; injection H as <- <-; [now apply OpOk_hd|now apply OpOk_hd|now apply OpOk_na].
Qed.

Lemma connack_reader : forall s p now, s_reader (fst (connack_process s p now)) = s_reader s.
Proof.
  intros s p now. destruct (connack_cases _ _ _ _ _ (surjective_pairing (connack_process s p now))) as [[-> _]|[sp [_ [_ [a [_ [_ [_ [-> _]]]]]]]]];
    [reflexivity|destruct sp; reflexivity].
Qed.

Lemma connack_ok_quiet : forall s p now s' resumed, connack_process s p now = (s', CAOk resumed) ->
  npart (s_ob s) = 0%nat -> npart (s_ob s') = 0%nat.
Proof.
  intros s p now s' resumed H Hz. destruct (connack_cases _ _ _ _ _ H) as [[_ [e [d E]]]|[sp [_ [_ [a [_ [_ [_ [-> _]]]]]]]]]; [discriminate E|].
  destruct sp; [exact Hz|reflexivity].
Qed.

Lemma direct_send_wire : forall fuel bs w w' r, direct_send fuel bs w = (w', r) ->
  w_sess w' = w_sess w /\ w_live w' = w_live w /\ w_poison w' = w_poison w /\
  exists k, w_wire w' = w_wire w ++ takeN k bs /\ (r = ODone tt -> k = lenN bs).
Proof.
  intros fuel bs w w' r H. unfold direct_send in H. destruct (write_all fuel bs w) as [w1 r1] eqn:Ew.
  destruct (write_all_sent fuel bs w w1 r1 Ew) as [Hs [Hl [Hp [k [_ [Hw Hk]]]]]].
  destruct r1 as [[]|e| | |]; cbn [bindu] in H;
    [|injection H as <- <-; repeat split; try assumption; exists k; split; [exact Hw|discriminate]..].
  destruct (io_flush w1) as [w2 fr] eqn:Ef. destruct (io_flush_ghost _ _ _ Ef) as [Hs2 [Hw2 [Hl2 Hp2]]].
  assert (w' = w2) as -> by (destruct fr; now inversion H).
  repeat split; try congruence. exists k. split; [congruence|]. intros _. exact (Hk eq_refl).
Qed.

Definition ConnPost (w' : world) (r : outcome N) : Prop :=
  w_poison w' = false /\ w_live w' = false /\
  (exists fs t, frames_ok fs /\ w_wire w' = concat fs ++ t /\ prefix_of_frame t /\ (forall ev, r = ODone ev -> t = [])) /\
  (forall ev, r = ODone ev -> npart (s_ob (w_sess w')) = 0%nat /\ NA w').

(* the transport has accepted the first k bytes of the CONNECT and nothing else; what follows leaves it alone *)
Lemma ConnPost_sent : forall bs k w3, is_frame bs -> w_wire w3 = takeN k bs -> w_poison w3 = false -> w_live w3 = false ->
  forall w' (x : outcome N), same_ghost w3 w' ->
  (forall ev, x = ODone ev -> lenN bs <= k /\ npart (s_ob (w_sess w')) = 0%nat /\ NA w') -> ConnPost w' x.
Proof.
  intros bs k w3 Hfr A B C w' x [Ew [El Ep]] D. rewrite <- Ew in A. rewrite <- Ep in B. rewrite <- El in C. split; [exact B|]. split; [exact C|]. split; [|intros ev E; apply (D ev E)].
  destruct (N.leb_spec (lenN bs) k) as [L|L].
  - exists [bs], []. rewrite A, takeN_all by exact L. split; [constructor; [exact Hfr|constructor]|].
    split; [cbn [concat]; now rewrite !app_nil_r|]. split; [now left|auto].
  - exists [], (takeN k bs). split; [constructor|]. split; [now rewrite A|]. split; [right; exists bs, k; auto|].
    intros ev E. destruct (D ev E) as [L' _]. exfalso. exact (N.lt_irrefl _ (N.lt_le_trans _ _ _ L L')).
Qed.

Theorem op_connect_pres : forall fuel w w' r,
  WInv (w_sess w) -> w_live w = false -> w_wire w = [] -> w_poison w = false ->
  op_connect fuel w = (w', r) ->
  w_poison w' = false /\ w_live w' = false /\
  (exists fs t, frames_ok fs /\ w_wire w' = concat fs ++ t /\ prefix_of_frame t /\ (forall ev, r = ODone ev -> t = [])) /\
  (forall ev, r = ODone ev -> npart (s_ob (w_sess w')) = 0%nat /\ NA w').
Proof.
  intros fuel w w' r I Hl Hw Hp H. change (ConnPost w' r). unfold op_connect in H.
  set (s1 := set_ob (set_rt (set_reader (w_sess w) (reader_reset (s_reader (w_sess w)))) (reset_transport (s_rt (w_sess w))))
                    (arm_replay (s_ob (w_sess w)))) in *.
  set (o1 := compact (s_ob s1)) in *. set (s2 := set_ob s1 o1) in *. set (w2 := upd_sess w s2) in *.
  assert (Q2 : npart (s_ob s2) = 0%nat).
  { apply Nat.le_0_r. rewrite <- (npart_arm_replay (s_ob (w_sess w))).
    apply npart_compact, oi_arena, OInv_arm_replay, (inv_ob _ (proj1 I)). }
  destruct (enc_connect (ob_cap o1 - ob_used o1) (connect_request s2)) as [off bs|e] eqn:Ee.
  2:{ injection H as <- <-. split; [exact Hp|]. split; [exact Hl|]. split; [|intros ev E; discriminate E].
      exists [], []. split; [constructor|]. split; [exact Hw|]. split; [now left|auto]. }
  assert (Hfr : is_frame bs) by (eexists; exact (proj1 (enc_connect_frame _ _ _ _ Ee))).
  destruct (direct_send fuel bs w2) as [w3 r3] eqn:Ed.
  destruct (direct_send_wire fuel bs w2 w3 r3 Ed) as [Hs3 [Hl3 [Hp3 [k [K3 K4]]]]].
  cbn [w2 w_wire w_live w_poison upd_sess] in K3, Hl3, Hp3. rewrite Hw in K3. rewrite Hl in Hl3. rewrite Hp in Hp3.
  pose proof (ConnPost_sent bs k w3 Hfr K3 Hp3 Hl3) as Sent.
  destruct r3 as [[]|e| | |]; cbn [bindu] in H; [|injection H as <- <-; apply Sent; [repeat split|intros ev; discriminate]..].
  (* from here on the whole CONNECT is on the wire, and only the session changes *)
  specialize (K4 eq_refl).
  set (w5 := upd_sess w3 (set_rt (w_sess w3) (rt_with_timers (s_rt (w_sess w3)) None None))) in *.
  destruct (fill_packet_reader fuel None w5) as [w6 fr6] eqn:Ef6.
  destruct (fill_same fuel None w5) as [Hg6 Ho6]. rewrite Ef6 in Hg6, Ho6. cbn [fst] in Hg6, Ho6. change (same_ghost w3 w6) in Hg6.
  assert (O6 : npart (s_ob (w_sess w6)) = 0%nat) by (rewrite Ho6; cbn [w5 w_sess upd_sess set_rt s_ob]; rewrite Hs3; exact Q2).
  destruct fr6; try (injection H as <- <-; apply Sent; [exact Hg6|intros ev; discriminate]).
  destruct (take_packet (s_reader (w_sess w6))) as [[[r' pl] p]|] eqn:Et;
    [|injection H as <- <-; apply Sent; [exact Hg6|intros ev; discriminate]].
  assert (Er : packet_available r' = false) by (unfold take_packet in Et; destruct (rplen _); inversion Et; reflexivity).
  pose proof (connack_reader (set_reader (w_sess w6) r') p (w_now w6)) as Rc.
  destruct (connack_process (set_reader (w_sess w6) r') p (w_now w6)) as [s7 cr] eqn:Ec. cbn [fst set_reader s_reader] in Rc.
  destruct cr as [resumed|e []]; inversion H; subst w' r; apply Sent; try exact Hg6; try (intros ev; discriminate).
  intros ev _. split; [rewrite K4; apply N.le_refl|]. split; [exact (connack_ok_quiet _ _ _ _ _ Ec O6)|].
  unfold NA. cbn [w_sess upd_envok upd_sess]. now rewrite Rc.
Qed.

Definition Good (w : world) : Prop := WInv (w_sess w) /\ WI w /\ (halted w = true \/ NAl w).

Lemma halted_fuel : forall {A} (f : A -> text) w, halted (upd_log w (show_outcome f OFuel)) = true.
Proof. intros. reflexivity. Qed.

Lemma G_log : forall w l, G w -> G (upd_log w l).
Proof. intros. eapply G_same; [reflexivity|repeat split|assumption]. Qed.

Lemma Good_G : forall w, G w -> halted w = true \/ NAl w -> Good w.
Proof. intros w [I HW] H. exact (conj I (conj HW H)). Qed.
Lemma Good_dead : forall w, G w -> w_live w = false -> Good w.
Proof. intros w Gw Hd. apply Good_G; [exact Gw|]. right. intros Hl. congruence. Qed.

Lemma ConnPost_good : forall w2 r l, WInv (w_sess w2) -> ConnPost w2 r ->
  Good (upd_log (match r with ODone ev => upd_live w2 true true ev | _ => upd_live w2 false false 0 end) l).
Proof.
  intros w2 r l I2 [_ [_ [[fs [t [Ff [Ew [Pt Pz]]]]] Pq]]]. destruct r as [ev|e| | |].
  2-5: apply Good_dead; [apply G_dead; [exact I2|reflexivity|]|reflexivity]; intros _; exists fs, t; repeat split; assumption.
  destruct (Pq ev eq_refl) as [Hz Hna2]. rewrite (Pz ev eq_refl), app_nil_r in Ew.
  apply Good_G; [|right; intros _; exact Hna2].
  apply G_live; [exact I2|]. intros _. split; [|now apply NA_Jinv].
  exists fs. split; [exact Ff|]. cbn [w_sess w_wire upd_log upd_live]. now rewrite (npart_zero_tail _ Hz), app_nil_r.
Qed.

Lemma Good_same : forall w w2, Good w -> NAl w -> w_sess w2 = w_sess w -> same_ghost w w2 -> Good w2.
Proof.
  intros w w2 [I [HW _]] Hna Hs Hg. apply Good_G; [exact (G_same w w2 Hs Hg (conj I HW))|]. right.
  intros Hl. unfold NA. rewrite Hs. apply Hna. destruct Hg as [_ [Hl' _]]. now rewrite <- Hl'.
Qed.

Lemma record_op_ghost : forall x o, w_sess (record_op x o) = w_sess x /\ same_ghost x (record_op x o) /\ w_log (record_op x o) = w_log x.
Proof. intros x o. unfold record_op. destruct o as [[h|]| | | |]; repeat split. Qed.

(* an operation of a connection handle, as run_action performs and logs it; a run that logs "= FUEL" is halted *)
Lemma op_case : forall {A} (f : world -> world * outcome A) (sh : A -> text) (k : world -> outcome A -> world) w,
  (forall x x' r, WInv (w_sess x) -> NAl x -> f x = (x', r) -> OpOk x x' r) ->
  (forall x o, w_sess (k x o) = w_sess x /\ same_ghost x (k x o) /\ w_log (k x o) = w_log x) ->
  Good w -> NAl w ->
  Good (if negb (w_conn w) then noconn w else let '(w1, o) := f w in upd_log (k w1 o) (show_outcome sh o)).
Proof.
  intros A f sh k w Hpres Hk Gd Hna. destruct (negb (w_conn w)); [apply (Good_same w); try assumption; repeat split|].
  destruct Gd as [I [HW _]]. destruct (f w) as [w1 o] eqn:Eo.
  destruct (Hpres w w1 o I Hna Eo) as [Q R]. destruct (Hk w1 o) as [Ks [[_ [Kl _]] _]].
  apply Good_G; [apply G_log; eapply G_same; [exact Ks|apply Hk|exact (Q (conj I HW))]|].
  destruct o as [a|e| | |]; try (right; intros Hl; unfold NA; cbn [w_sess w_live upd_log] in *; rewrite Ks;
    apply R; [discriminate|now rewrite <- Kl]).
  left. reflexivity.
Qed.

Theorem run_action_good : forall a w, Good w -> NAl w -> Good (run_action a w).
Proof.
  intros a w Gd Hna. pose proof Gd as [I [HW Hh]].
  assert (Gw : G w) by (split; assumption).
  assert (Idk : forall x : world, w_sess x = w_sess x /\ same_ghost x x /\ w_log x = w_log x) by (intros; repeat split).
  assert (Simple : forall w2, w_sess w2 = w_sess w -> same_ghost w w2 -> Good w2) by (intros w2; now apply Good_same).
  destruct a as [chunks|r|topics ps|topics ps|d| | | |delay bs|dt| | |mode|pid| ]; cbn [run_action].
  - set (w0 := upd_poison (upd_wire (upd_txbuf (upd_inq (upd_live w false false 0) [] (w_now w)) []) []) false).
    destruct (fold_feed_frame chunks w0) as [F Fw]. destruct (frame_ghost _ _ F Fw) as [Fs [_ [Fl Fp]]].
    set (w1 := fold_left (fun w c => feed w (fst c) (snd c)) chunks w0) in *.
    assert (I1 : WInv (w_sess w1)) by (rewrite Fs; exact I).
    destruct (op_connect FUEL w1) as [w2 r] eqn:Eo.
    apply ConnPost_good; [exact (WInv_res _ _ _ _ (op_connect_wq FUEL w1) Eo I1)|].
    apply (op_connect_pres FUEL w1 w2 r I1); [now rewrite Fl|now rewrite Fw|now rewrite Fp|exact Eo].
  - exact (op_case (op_publish FUEL r) _ record_op w (op_publish_pres _ _) record_op_ghost Gd Hna).
  - exact (op_case (op_subscribe FUEL topics ps) _ record_op w (op_subscribe_pres _ _ _) record_op_ghost Gd Hna).
  - exact (op_case (op_unsubscribe FUEL topics ps) _ record_op w (op_unsubscribe_pres _ _ _) record_op_ghost Gd Hna).
  - exact (op_case (op_disconnect FUEL d) _ (fun x _ => x) w (op_disconnect_pres _ _) (fun x _ => Idk x) Gd Hna).
  - exact (op_case (op_drive FUEL) _ (fun x _ => x) w (op_drive_pres _) (fun x _ => Idk x) Gd Hna).
  - exact (op_case (op_poll FUEL) _ (fun x _ => x) w (op_poll_pres _) (fun x _ => Idk x) Gd Hna).
  - exact (op_case (op_recv FUEL) _ (fun x _ => x) w (op_recv_pres _) (fun x _ => Idk x) Gd Hna).
  - destruct (feed_frame w delay bs) as [F W]. apply Simple; apply (frame_ghost _ _ F W).
  - apply Simple; repeat split.
  - (* the handle is dropped *)
    apply Good_dead; [|reflexivity]. apply G_dead; [exact I|reflexivity|]. intros Hp. exact (proj1 (HW Hp)).
  - destruct (negb (w_conn w)); [apply Simple; repeat split|].
    apply Good_dead; [|reflexivity]. apply G_log, (proj2 (Pres_hd w) Gw).
  - apply Simple; repeat split.
  - destruct (w_conn w); [apply Simple; repeat split|].
    set (pv := if N.eqb (pid mod 65536) 0 then 1 else pid mod 65536).
    assert (Hpid : 1 <= pv <= 65535).
    { unfold pv. clear. pose proof (N.mod_upper_bound pid 65536 ltac:(lia)). destruct (N.eqb_spec (pid mod 65536) 0); lia. }
    pose proof (Pres_sess w (set_pid (w_sess w) pv) LOther (SS_setpid _ _ Hpid) eq_refl (le_n _) eq_refl) as [_ PG].
    apply Good_G; [apply G_log, PG, Gw|]. right. exact Hna.
  - apply Simple; repeat split.
Qed.

Lemma Good_log_state : forall w l, Good w -> halted w = false -> Good (upd_log w l).
Proof.
  intros w l [I [HW Hh]] Hf. apply Good_G; [exact (G_log w l (conj I HW))|]. destruct Hh as [Hh|Hn]; [congruence|]. right. exact Hn.
Qed.

Theorem step_action_good : forall w a, Good w -> Good (step_action w a).
Proof.
  intros w a Gw. unfold step_action. destruct (halted w) eqn:Eh; [exact Gw|].
  assert (Hn : NAl w) by (destruct Gw as [_ [_ [Hh|Hn]]]; [congruence|exact Hn]).
  match goal with |- context [run_action a ?x] => set (w0 := x) end.
  assert (G0 : Good w0) by (apply (Good_same w); [exact Gw|exact Hn|reflexivity|repeat split]).
  pose proof (run_action_good a w0 G0 Hn) as G1.
  destruct (halted (run_action a w0)) eqn:E1; [exact G1|]. now apply Good_log_state.
Qed.

Lemma Good_init : forall c, Good (init_world c).
Proof.
  intros c. split.
  - split; [apply Inv_init|]. split; [constructor|]. split; [unfold Single, nip; cbn; lia|exact Logic.I].
  - split.
    + intros _. split; [exists [], []; split; [constructor|]; split; [reflexivity|now left]|]. intros Hd. discriminate Hd.
    + right. intros Hd. discriminate Hd.
Qed.

Theorem run_case_good : forall c, Good (run_case c).
Proof.
  intros c. unfold run_case. generalize (Good_init c). generalize (init_world c). induction (c_prog c) as [|a t IH]; intros w Gw; cbn [fold_left]; [exact Gw|].
  apply IH. now apply step_action_good.
Qed.

Theorem reachable_WInv : forall c, WInv (w_sess (run_case c)).
Proof. intros c. exact (WInv_wq _ _ (run_case_wq c) (proj1 (Good_init c))). Qed.

(* `run_case c` ranges over every program, every script (partial writes down to one byte, a fault or a dropped future at any
   I/O call), every broker behaviour and every number of reconnects *)
Theorem wire_is_whole_packets : forall c,
  let w := run_case c in
  w_poison w = false ->
  exists fs t, Forall is_frame fs /\ w_wire w = concat fs ++ t /\ prefix_of_frame t /\
               (w_live w = true -> t = tail_of (s_ob (w_sess w))).
Proof.
  intros c w Hp. destruct (run_case_good c) as [I [HW _]]. fold w in I, HW. destruct (HW Hp) as [D L].
  destruct (w_live w) eqn:Hl.
  - destruct (L eq_refl) as [[fs [Ff Ew]] _]. exists fs, (tail_of (s_ob (w_sess w))). split; [exact Ff|]. split; [exact Ew|].
    split; [now apply tail_shape|reflexivity].
  - destruct D as [fs [t [Ff [Ew Pt]]]]. exists fs, t. repeat split; try assumption. intros Hd. discriminate Hd.
Qed.

(* the packets are recovered from the stream by the standard's framing rule *)
Corollary wire_frames_split : forall c,
  let w := run_case c in
  w_poison w = false -> w_live w = true -> npart (s_ob (w_sess w)) = 0%nat ->
  exists fs, Forall is_frame fs /\ split_frames (S (length fs)) (w_wire w) = Some fs.
Proof.
  intros c w Hp Hl Hq. destruct (wire_is_whole_packets c Hp) as [fs [t [Ff [Ew [_ Ht]]]]]. fold w in Ew, Ht.
  specialize (Ht Hl). rewrite (npart_zero_tail _ Hq) in Ht. subst t. rewrite app_nil_r in Ew.
  exists fs. split; [exact Ff|]. rewrite Ew. apply split_frames_concat; [|lia].
  exact Ff.
Qed.

(* The flag is not vacuous: each of the recorded findings K01b, K01c sets it, and K01a shows what the theorem does not say. *)
(* K01a: a SUBSCRIBE replayed on a resumed session has first byte 0x8a = 138: a whole packet (the theorem above holds),
   but not one a client may send *)
Definition k01a_tokens : list N :=
  [64; 256; 1; 116; 0; 0; 0; 0; 0; 5;  0; 1; 0; 5; 32; 3; 0; 0; 0;  2; 0; 1; 1; 97; 0; 0; 0; 0;  10;  0; 1; 0; 5; 32; 3; 1; 0; 0;  6;  0].
(* K01b: QoS 1 PUBLISH dropped after 3 bytes, then disconnect() *)
Definition k01b_tokens : list N :=
  [64; 256; 1; 116; 0; 0; 0; 0; 0; 3;  0; 1; 0; 5; 32; 3; 0; 0; 0;  1; 1; 97; 0; 0; 1; 5; 104; 101; 108; 108; 111; 0;  4; 0; 0;
   7; 0; 1000; 0; 1000; 0; 1000; 0; 1000; 0; 1000; 0; 3; 3; 0].
(* K01c: disconnect() dropped after 1 byte, then a QoS 0 publish *)
Definition k01c_tokens : list N :=
  [64; 256; 1; 116; 0; 0; 0; 0; 0; 3;  0; 1; 0; 5; 32; 3; 0; 0; 0;  4; 0; 0;  1; 1; 97; 0; 0; 0; 1; 120; 0;
   7; 0; 1000; 0; 1000; 0; 1000; 0; 1000; 0; 1000; 0; 1; 3; 0].
Definition world_of (toks : list N) : option world :=
  match p_case toks with Some (c, []) => Some (run_case c) | _ => None end.

Definition ends_with (l suffix : bytes) : Prop := dropN (lenN l - lenN suffix) l = suffix.

Theorem known_findings_witnessed :
  (exists w, world_of k01a_tokens = Some w /\ w_poison w = false /\
     ends_with (w_wire w) [138; 7; 0; 1; 0; 0; 1; 97; 0] /\ spec_client_first_byte 138 = false) /\
  (exists w, world_of k01b_tokens = Some w /\ w_poison w = true /\ ends_with (w_wire w) [50; 11; 0; 224; 0]) /\
  (exists w, world_of k01c_tokens = Some w /\ w_poison w = true /\ w_live w = true /\
     ends_with (w_wire w) [224; 48; 5; 0; 1; 97; 0; 120]).
Proof.
  assert (L : forall (P : world -> Prop) o, match o with Some w => P w | None => False end -> exists w, o = Some w /\ P w).
  { intros P [w|] H; [exists w; split; [reflexivity|exact H]|contradiction]. }
  split; [|split]; apply L; vm_compute; repeat split.
Qed.
