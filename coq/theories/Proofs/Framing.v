(* Framing.v — C15 for the inbound direction at the level of the machine: whatever the fragmentation and timing of
   reads, the packet reader of every reachable world holds a prefix of the inbound byte stream that is never longer
   than the packet being assembled (RInv); hence the packet that process_received decodes is exactly the first `pl`
   bytes of the stream (reader ++ bytes still queued on the transport), and handling it removes exactly those bytes.
   RInv is kept by every block of the machine (`run_RP`), hence by every operation. *)
From Coq Require Import List NArith Lia.
From Minimq Require Import Bytes Varint De Reader Core Machine Run.
From Minimq Require Import Util Io Blocks Wire Chunking ReaderInv Cancel Behaving.
Import ListNotations.
Open Scope N_scope.

Definition rd (w : world) : reader := s_reader (w_sess w).
Definition RP (w w' : world) : Prop := RInv (rd w) -> RInv (rd w').

Lemma RP_refl : forall w, RP w w. Proof. intros w H. exact H. Qed.
Lemma RP_trans : forall a b c, RP a b -> RP b c -> RP a c. Proof. intros a b c H1 H2 H. auto. Qed.
Lemma RP_same : forall w w', rd w' = rd w -> RP w w'. Proof. intros w w' E H. unfold RP in *. now rewrite E. Qed.
Lemma RP_reset : forall w w' r, rd w' = reader_reset r -> RP w w'. Proof. intros w w' r E _. rewrite E. apply RInv_reset. Qed.
Lemma RP_frame : forall w w', io_frame w w' -> RP w w'.
Proof. intros w w' F. apply RP_same. unfold rd. now rewrite (fr_sess _ _ F). Qed.
Lemma RP_io_read : forall win dl w, RP w (fst (io_read win dl w)).
Proof. intros. apply RP_frame, io_read_frame. Qed.
Lemma RP_upd_same : forall w s, s_reader s = rd w -> RP w (upd_sess w s).
Proof. intros w s E. apply RP_same. exact E. Qed.

Lemma RP_window : forall w r' x, receive_buffer (rd w) = (r', x) -> RP w (upd_sess w (set_reader (w_sess w) r')).
Proof. intros w r' x Er Hi. apply receive_buffer_RInv in Hi. now rewrite Er in Hi. Qed.

(* the commit of a read is the one block that extends the reader: by no more than the window, and the window was
   computed from the very reader that is extended *)
Lemma RP_commit : forall w r' win dl w1 d, receive_buffer (rd w) = (r', Some win) ->
  io_read win dl (upd_sess w (set_reader (w_sess w) r')) = (w1, RData d) ->
  RP w1 (upd_sess w1 (set_reader (w_sess w1) (commit (rd w1) d))).
Proof.
  intros w r' win dl w1 d Er Ei. pose proof (fr_sess _ _ (io_read_frame win dl (upd_sess w (set_reader (w_sess w) r')))) as Hs.
  rewrite Ei in Hs. cbn [fst w_sess upd_sess] in Hs. intros Hi. unfold rd in *. cbn [w_sess upd_sess] in *. rewrite Hs in *.
  cbn [set_reader s_reader] in *.
  apply (window_RInv r' r' win Hi (receive_buffer_again _ _ _ Er)). eapply io_read_len; exact Ei.
Qed.

(* apart from the window and the commit, a block leaves the reader alone or resets it; the cases are the constructors
   of `run`, in the groups of Blocks.v *)
Theorem run_RP : forall P w w', run P w w' -> RP w w'.
Proof.
  induction 1.
  - apply RP_refl.
  - eapply RP_trans; eassumption.
  (* the I/O primitives *)
  - apply RP_frame, io_write_frame.
  - apply RP_frame, io_flush_frame.
  - apply RP_io_read.
  (* the outbound engine *)
  - eapply RP_reset. reflexivity.
  - apply RP_upd_same, ping_pres.
  - apply RP_upd_same, set_written_reader.
  - apply RP_upd_same, complete_flush_reader.
  (* the inbound side *)
  - eapply RP_reset, take_packet_reset. eassumption.
  - eapply RP_reset. unfold rd. cbn [w_sess upd_drained upd_envok upd_sess]. rewrite handle_packet_reader.
    eapply take_packet_reset. eassumption.
  - eapply RP_window; eassumption.
  - apply RP_same. reflexivity.
  - eapply RP_commit; eassumption.
  (* the requests *)
  - apply RP_same. unfold mark_partial. destruct (_ && _); reflexivity.
  - apply RP_upd_same. reflexivity.
  - apply RP_upd_same, publish_middle_reader.
  - apply RP_upd_same, enqueue_middle_reader.
  - apply RP_upd_same, enqueue_middle_reader.
  - apply RP_same. reflexivity.
  (* connect *)
  - eapply RP_reset. reflexivity.
  - apply RP_upd_same. reflexivity.
  - eapply RP_reset. reflexivity.
  - eapply RP_reset, take_packet_reset. eassumption.
  - pose proof (connack_reader (w_sess w) p (w_now w)) as Hr.
    destruct (connack_process (w_sess w) p (w_now w)) as [s6 [resumed|e d]]; apply RP_same; exact Hr.
Qed.

Theorem run_action_RInv : forall a w, RInv (rd w) -> RInv (rd (run_action a w)).
Proof.
  intros a w Hi.
  assert (Hop : forall x (o : outcome (option op)), rd (record_op x o) = rd x) by (intros x [[h|]| | | |]; reflexivity).
  assert (Run : forall w', run (fun _ => True) w w' -> RInv (rd w')) by (intros w' H; exact (run_RP _ _ _ H Hi)).
  assert (Hl : forall x l, rd (upd_log x l) = rd x) by reflexivity.
  assert (Hid : forall A x (o : outcome A), rd x = rd x) by reflexivity.
  destruct a as [chunks|r|topics ps|topics ps|d| | | |delay bs|dt| | |mode|pid| ]; cbn [run_action];
    try (destruct (negb (w_conn w)); [exact Hi|]).
  - match goal with |- context [op_connect FUEL ?x] => pose proof (run_RP _ _ _ (op_connect_run (fun _ => True) FUEL x)) as H; destruct (op_connect FUEL x) as [w2 r] end.
    cbn [fst] in H. unfold RP, rd in H. rewrite (fr_sess _ _ (proj1 (fold_feed_frame _ _))) in H. destruct r; exact (H Hi).
  - rewrite (logged_op rd Hl (op_publish FUEL r) _ record_op Hop). apply Run, op_publish_run.
  - rewrite (logged_op rd Hl (op_subscribe FUEL topics ps) _ record_op Hop). apply Run, op_subscribe_run.
  - rewrite (logged_op rd Hl (op_unsubscribe FUEL topics ps) _ record_op Hop). apply Run, op_unsubscribe_run.
  - rewrite (logged_op rd Hl (op_disconnect FUEL d) _ (fun x _ => x) (Hid _)). apply Run, op_disconnect_run.
  - rewrite (logged_op rd Hl (op_drive FUEL) _ (fun x _ => x) (Hid _)). apply Run, op_drive_run.
  - rewrite (logged_op rd Hl (op_poll FUEL) _ (fun x _ => x) (Hid _)). apply Run, op_poll_run.
  - rewrite (logged_op rd Hl (op_recv FUEL) _ (fun x _ => x) (Hid _)). apply Run, op_recv_run.
  - unfold rd. cbn [w_sess upd_log]. now rewrite (fr_sess _ _ (proj1 (feed_frame w delay bs))).
  - exact Hi.
  - exact Hi.
  - exact (run_RP _ _ _ (run_hd (fun _ => True) w) Hi).
  - exact Hi.
  - destruct (w_conn w); exact Hi.
  - exact Hi.
Qed.

Theorem reachable_RInv : forall c, RInv (rd (run_case c)).
Proof.
  intros c. unfold run_case.
  assert (H0 : RInv (rd (init_world c))) by (unfold rd, init_world, session_new; cbn; split; [constructor|intros _; unfold read_bytes; cbn; lia]).
  revert H0. generalize (init_world c). induction (c_prog c) as [|a t IH]; intros w Hw; cbn [fold_left]; [exact Hw|].
  apply IH. unfold step_action. destruct (halted w); [exact Hw|].
  match goal with |- context [run_action a ?x] => pose proof (run_action_RInv a x Hw) as H; destruct (halted (run_action a x)); exact H end.
Qed.

Theorem handled_packet_is_next_frame : forall w, RInv (rd w) -> packet_available (rd w) = true ->
  exists pl, rplen (rd w) = Some pl /\ pl <= lenN (inbound_stream w) /\
    rdata (rd w) = takeN pl (inbound_stream w) /\
    take_packet (rd w) = Some (reader_reset (rd w), pl, from_buffer (takeN pl (inbound_stream w))).
Proof.
  intros w Hi Ha. destruct (available_exact _ Hi Ha) as [pl [Ep El]]. exists pl. split; [exact Ep|].
  unfold inbound_stream. fold (rd w). unfold read_bytes in El.
  assert (Et : takeN pl (rdata (rd w) ++ inq_bytes (w_inq w)) = rdata (rd w)) by (rewrite <- El; apply takeN_app_exact).
  split; [rewrite lenN_app; lia|]. split; [now rewrite Et|].
  unfold take_packet. rewrite Ep, Et. f_equal. f_equal. f_equal. rewrite <- El. now rewrite takeN_all by lia.
Qed.

Theorem process_consumes_frame : forall w pl, RInv (rd w) -> packet_available (rd w) = true -> rplen (rd w) = Some pl ->
  inbound_stream (fst (process_received w)) = dropN pl (inbound_stream w).
Proof.
  intros w pl Hi Ha Ep. destruct (available_exact _ Hi Ha) as [pl' [Ep' El]]. rewrite Ep in Ep'. injection Ep' as Epp. rewrite <- Epp in El. clear Epp pl'.
  assert (Hd : dropN pl (inbound_stream w) = inq_bytes (w_inq w)).
  { unfold inbound_stream. fold (rd w). unfold read_bytes in El. rewrite <- El. apply dropN_app_exact. }
  rewrite Hd. unfold process_received. fold (rd w). rewrite Ha. cbn [negb]. unfold take_packet. rewrite Ep.
  destruct (from_buffer (takeN pl (rdata (rd w)))) as [p|].
  - pose proof (handle_packet_reader (set_reader (w_sess w) (reader_reset (rd w))) p) as Hr.
    destruct (handle_packet (set_reader (w_sess w) (reader_reset (rd w))) p) as [s2 hr]. cbn [fst set_reader s_reader] in Hr.
    destruct hr as [[|]|e]; [| |destruct e]; cbn [fst]; unfold inbound_stream, w_hd, sess_handle_disconnect;
      cbn [w_sess w_inq upd_drained upd_envok upd_sess upd_live set_reader set_rt set_ob s_reader reader_reset rdata]; rewrite ?Hr; reflexivity.
  - cbn [fst]. unfold inbound_stream, w_hd, sess_handle_disconnect.
    cbn [w_sess w_inq upd_sess upd_live set_reader set_rt set_ob s_reader reader_reset rdata]. reflexivity.
Qed.

(* the length is read off the stream's own header: the framing is a function of the stream alone *)
Theorem frame_length_from_stream : forall w pl, RInv (rd w) -> rplen (rd w) = Some pl ->
  probe_len (takeN 4 (dropN 1 (inbound_stream w))) = Some pl.
Proof.
  intros w pl [Hok _] Ep. unfold ROK in Hok. rewrite Ep in Hok. destruct Hok as [_ Hp].
  unfold inbound_stream. fold (rd w). now apply probe_len_ext.
Qed.

(* non-vacuity: the same QoS 2 PUBLISH read whole and read one byte at a time *)
From Minimq Require Import ConnectOk Drain.
Definition ex_q2_frag : world :=
  run_case {| c_cfg := ex_cfg;
              c_prog := [ASetBroker 2; AConnect []; AFeed 0 [52; 6; 0; 1; 116; 0; 7; 0]; APoll; APoll];
              c_script := [(0, 1000); (0, 1000); (0, 1000); (0, 1000); (0, 1000);
                           (0, 1); (0, 1); (0, 1); (0, 1); (0, 1); (0, 1); (0, 1); (0, 1); (0, 1); (0, 1); (0, 1); (0, 1)] |}.

Example framing_example :
  s_srv (w_sess ex_q2_frag) = s_srv (w_sess ex_q2) /\ s_srv (w_sess ex_q2) = [7] /\
  w_wire ex_q2_frag = w_wire ex_q2 /\ w_live ex_q2_frag = true /\ rd ex_q2_frag = rd ex_q2.
Proof. vm_compute. repeat split; reflexivity. Qed.
