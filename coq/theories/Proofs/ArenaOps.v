(* ArenaOps.v — every arena operation seen through the abstract view: the list of (id, bytes, state) of the
   retained packets.  This is the refinement behind C17 (retained packets stay intact) and the geometry invariant
   that makes every slice access and copy_within in the Rust code in-bounds.  At the end `states_only`: what the
   engine's bookkeeping of send states leaves alone. *)
From Coq Require Import Lia.
From Minimq Require Import Util Bytes Ser Arena ArenaLemmas SerLemmas.

Definition arena_wf (o : outbound) : Prop :=
  wf_layout 0 (ob_ret o) (ob_used o) /\ ob_used o <= lenN (ob_buf o).

Definition aentry := (N * bytes * sstate)%type.
Definition abs_entry (buf : bytes) (e : rentry) : aentry := (re_pid e, entry_bytes buf e, re_st e).
Definition abs (o : outbound) : list aentry := map (abs_entry (ob_buf o)) (ob_ret o).

Lemma abs_from_maps : forall buf buf' es es',
  map (entry_bytes buf') es' = map (entry_bytes buf) es ->
  map re_pid es' = map re_pid es -> map re_st es' = map re_st es ->
  map (abs_entry buf') es' = map (abs_entry buf) es.
Proof.
  intros buf buf' es es' H1 H2 H3. eapply map_eq3; [exact H1 | exact H2 | exact H3 |].
  intros. unfold abs_entry. congruence.
Qed.

Lemma compact_spec : forall o, arena_wf o ->
  arena_wf (compact o) /\ abs (compact o) = abs o /\
  ob_used (compact o) = used_after_compact o /\ lenN (ob_buf (compact o)) = lenN (ob_buf o) /\
  ob_ctl (compact o) = ob_ctl o /\ ob_rel (compact o) = ob_rel o /\
  map re_pid (ob_ret (compact o)) = map re_pid (ob_ret o) /\
  map re_len (ob_ret (compact o)) = map re_len (ob_ret o) /\
  map re_st (ob_ret (compact o)) = map re_st (ob_ret o) /\
  ob_used (compact o) <= ob_used o.
Proof.
  intros o [W U]. unfold compact.
  pose proof (compact_go_spec (ob_ret o) (ob_buf o) 0 (ob_used o) W U) as H.
  destruct (compact_go (ob_buf o) 0 (ob_ret o)) as [[b es] c].
  destruct H as [H1 [H2 [H3 [H4 [H5 [H6 [H7 [H8 H9]]]]]]]].
  cbn [ob_buf ob_used ob_ret ob_ctl ob_rel]. unfold arena_wf, abs, used_after_compact.
  cbn [ob_buf ob_used ob_ret ob_ctl ob_rel].
  repeat split; try assumption; try lia.
  apply abs_from_maps; assumption.
Qed.

Lemma has_retained_In : forall o pid, has_retained o pid = true <-> In pid (map re_pid (ob_ret o)).
Proof.
  intros. unfold has_retained. rewrite existsb_exists, in_map_iff. split; intros [e [H1 H2]]; exists e; split; try assumption; lia.
Qed.
Lemma has_release_In : forall o pid, has_pending_release o pid = true <-> In pid (map le_pid (ob_rel o)).
Proof.
  intros. unfold has_pending_release. rewrite existsb_exists, in_map_iff. split; intros [e [H1 H2]]; exists e; split; try assumption; lia.
Qed.

Fixpoint abs_remove (pid : N) (l : list aentry) : option (list aentry) :=
  match l with
  | [] => None
  | (p, b, s) :: t => if N.eqb p pid then Some t
                      else match abs_remove pid t with Some t' => Some ((p, b, s) :: t') | None => None end
  end.

Lemma remove_first_ret_abs : forall buf pid es,
  match remove_first_ret pid es with
  | Some es' => abs_remove pid (map (abs_entry buf) es) = Some (map (abs_entry buf) es')
  | None => abs_remove pid (map (abs_entry buf) es) = None
  end.
Proof.
  induction es as [|e t IH]; cbn [remove_first_ret map]; [reflexivity|].
  change (abs_remove pid (abs_entry buf e :: map (abs_entry buf) t))
    with (if N.eqb (re_pid e) pid then Some (map (abs_entry buf) t)
          else match abs_remove pid (map (abs_entry buf) t) with
               | Some t' => Some (abs_entry buf e :: t') | None => None end).
  destruct (N.eqb (re_pid e) pid); [reflexivity|].
  destruct (remove_first_ret pid t); rewrite IH; reflexivity.
Qed.

Lemma remove_first_ret_wf : forall pid es es' lo used,
  remove_first_ret pid es = Some es' -> wf_layout lo es used -> wf_layout lo es' used.
Proof.
  induction es as [|e t IH]; intros es' lo used H W; cbn [remove_first_ret] in H; [discriminate|].
  cbn [wf_layout] in W. destruct W as [W1 [W2 W3]].
  destruct (N.eqb (re_pid e) pid).
  - inversion H; subst. eapply wf_layout_weaken; [|exact W3]. lia.
  - destruct (remove_first_ret pid t) as [t'|] eqn:E; [|discriminate]. inversion H; subst.
    cbn [wf_layout]. repeat split; try assumption. eapply IH; [reflexivity|exact W3].
Qed.

Lemma ack_packet_spec : forall o pid o' found, arena_wf o -> ack_packet o pid = (o', found) ->
  arena_wf o' /\ ob_ctl o' = ob_ctl o /\ ob_rel o' = ob_rel o /\ lenN (ob_buf o') = lenN (ob_buf o) /\
  (if found then abs_remove pid (abs o) = Some (abs o') else o' = o /\ abs_remove pid (abs o) = None).
Proof.
  intros o pid o' found [W U] H. unfold ack_packet in H.
  pose proof (remove_first_ret_abs (ob_buf o) pid (ob_ret o)) as Ha.
  destruct (remove_first_ret pid (ob_ret o)) as [es|] eqn:E.
  - inversion H; subst; clear H.
    set (o1 := {| ob_buf := ob_buf o; ob_used := ob_used o; ob_ctl := ob_ctl o; ob_ret := es; ob_rel := ob_rel o |}).
    assert (W1 : arena_wf o1).
    { split; [|exact U]. cbn [ob_ret ob_used o1]. eapply remove_first_ret_wf; eassumption. }
    destruct (compact_spec o1 W1) as [C1 [C2 [C3 [C4 [C5 [C6 _]]]]]].
    refine (conj C1 (conj C5 (conj C6 (conj C4 _)))). rewrite C2. exact Ha.
  - inversion H; subst. refine (conj (conj W U) (conj eq_refl (conj eq_refl (conj eq_refl (conj eq_refl Ha))))).
Qed.

(* the 2 is a fixed header *)
Definition fits (enc : N -> sres) : Prop :=
  forall cap off' bs, enc cap = SOk off' bs -> off' + lenN bs <= cap /\ 2 <= lenN bs.

Definition typed (enc : N -> sres) (typ : N) : Prop :=
  forall cap off bs, enc cap = SOk off bs -> exists flags t, bs = (typ * 16 + flags mod 16) :: t.

Lemma encode_at_spec : forall o enc o1 r, arena_wf o -> fits enc -> encode_at o enc = (o1, r) ->
  arena_wf o1 /\ abs o1 = abs o /\ ob_ret o1 = ob_ret (compact o) /\ ob_ctl o1 = ob_ctl o /\ ob_rel o1 = ob_rel o /\
  lenN (ob_buf o1) = lenN (ob_buf o) /\
  match r with
  | EOk off len => ob_used o1 <= off /\ 2 <= len /\ off + len <= lenN (ob_buf o1) /\
      exists cap off', enc cap = SOk off' (sliceN off len (ob_buf o1))
  | EErr _ => True
  end.
Proof.
  intros o enc o1 r Wf Henc He. unfold encode_at in He.
  destruct (compact_spec o Wf) as [[CW CU] [C2 [_ [C4 [C5 [C6 _]]]]]]. set (oc := compact o) in *.
  destruct (enc (ob_cap oc - ob_used oc)) as [off' bs|e] eqn:Ee; injection He as <- <-;
    [|exact (conj (conj CW CU) (conj C2 (conj eq_refl (conj C5 (conj C6 (conj C4 I))))))].
  destruct (Henc _ _ _ Ee) as [Hfit Hlen]. unfold ob_cap in Hfit.
  unfold arena_wf, abs. cbn [ob_buf ob_used ob_ret ob_ctl ob_rel]. rewrite lenN_overwrite by lia.
  refine (conj (conj CW CU) (conj _ (conj eq_refl (conj C5 (conj C6 (conj C4 _)))))).
  - transitivity (abs oc); [|exact C2]. apply abs_from_maps; try reflexivity.
    apply (entry_bytes_ext _ _ _ _ _ CW). intros p n _ Hn. apply slice_overwrite_before; lia.
  - rewrite slice_overwrite_same by lia. refine (conj _ (conj Hlen (conj _ _))); eauto; lia.
Qed.

Lemma retain_packet_spec : forall o pid off len o2, arena_wf o ->
  ob_used o <= off -> 2 <= len -> off + len <= lenN (ob_buf o) -> retain_packet o pid off len = Some o2 ->
  arena_wf o2 /\ abs o2 = abs o ++ [(pid, sliceN off len (ob_buf o), SWrite 0)] /\
  ob_ctl o2 = ob_ctl o /\ ob_rel o2 = ob_rel o /\ ob_buf o2 = ob_buf o.
Proof.
  intros o pid off len o2 [W U] Ho Hl Hb Hr. unfold retain_packet in Hr. destruct (_ <=? _); [discriminate|].
  injection Hr as <-. unfold arena_wf, abs. cbn [ob_buf ob_used ob_ret ob_ctl ob_rel]. rewrite N.max_r by lia.
  refine (conj (conj _ Hb) (conj _ (conj eq_refl (conj eq_refl eq_refl)))).
  - apply (wf_layout_snoc _ _ _ {| re_pid := pid; re_off := off; re_len := len; re_st := SWrite 0 |} W); assumption.
  - rewrite map_app. reflexivity.
Qed.

Lemma encode_retain_spec : forall o enc o1 off len pid o2,
  arena_wf o ->
  (forall cap off' bs, enc cap = SOk off' bs -> off' + lenN bs <= cap /\ 2 <= lenN bs) ->
  encode_at o enc = (o1, EOk off len) ->
  retain_packet o1 pid off len = Some o2 ->
  exists bs, arena_wf o2 /\ abs o2 = abs o ++ [(pid, bs, SWrite 0)] /\ lenN bs = len /\
    (exists cap off', enc cap = SOk off' bs) /\
    ob_ctl o2 = ob_ctl o /\ ob_rel o2 = ob_rel o /\ lenN (ob_buf o2) = lenN (ob_buf o).
Proof.
  intros o enc o1 off len pid o2 Wf Henc He Hr.
  destruct (encode_at_spec _ _ _ _ Wf Henc He) as [W1 [A1 [_ [C1 [L1 [B1 [Hu [Hl [Hb Hx]]]]]]]]].
  destruct (retain_packet_spec _ _ _ _ _ W1 Hu Hl Hb Hr) as [W2 [A2 [C2 [L2 B2]]]].
  exists (sliceN off len (ob_buf o1)). rewrite A2, A1, C2, L2, B2.
  refine (conj W2 (conj eq_refl (conj _ (conj Hx (conj C1 (conj L1 B1)))))). apply lenN_sliceN, Hb.
Qed.

Definition dup_bytes (b : bytes) : bytes := match b with x :: t => set_bit3 x :: t | [] => [] end.
Definition dup_aentry (a : aentry) : aentry := let '(p, b, s) := a in (p, dup_bytes b, s).

Lemma poke_dup_overwrite : forall buf off, off < lenN buf ->
  poke_dup buf off = overwrite buf off [set_bit3 (nthN off buf 0)].
Proof.
  intros buf off H. unfold poke_dup, overwrite.
  assert (Hd : exists b t, dropN off buf = b :: t).
  { destruct (dropN off buf) as [|b t] eqn:E; [|eauto]. apply (f_equal lenN) in E. rewrite lenN_dropN, lenN_nil in E. lia. }
  destruct Hd as [b [t Hd]]. rewrite Hd. f_equal.
  assert (Hn : nthN off buf 0 = b).
  { clear - Hd. revert off Hd. induction buf as [|x l IH]; intros off Hd; cbn [dropN nthN] in *; [discriminate|].
    destruct (N.eqb off 0); [now inversion Hd | now apply IH]. }
  rewrite Hn. cbn [app]. f_equal. change (lenN [set_bit3 b]) with 1.
  replace (off + 1) with (1 + off) by lia. rewrite <- dropN_dropN, Hd. cbn [dropN].
  change (1 =? 0) with false. cbv iota. change (N.pred 1) with 0. now rewrite dropN_0.
Qed.

Lemma lenN_poke_dup : forall buf off, lenN (poke_dup buf off) = lenN buf.
Proof.
  intros. unfold poke_dup. destruct (dropN off buf) as [|b t] eqn:E.
  - rewrite app_nil_r, lenN_takeN. apply (f_equal lenN) in E. rewrite lenN_dropN, lenN_nil in E. lia.
  - rewrite lenN_app, lenN_cons, lenN_takeN. apply (f_equal lenN) in E. rewrite lenN_dropN, lenN_cons in E. lia.
Qed.

Lemma slice_poke_head : forall buf off len, 1 <= len -> off + len <= lenN buf ->
  sliceN off len (poke_dup buf off) = dup_bytes (sliceN off len buf).
Proof.
  intros buf off len H1 H2. unfold poke_dup, sliceN.
  destruct (dropN off buf) as [|b t] eqn:E.
  - apply (f_equal lenN) in E. rewrite lenN_dropN, lenN_nil in E. lia.
  - assert (Ht : lenN (takeN off buf) = off) by (rewrite lenN_takeN; lia).
    rewrite dropN_app_ge by lia. rewrite Ht, N.sub_diag, dropN_0.
    cbn [takeN dup_bytes]. destruct (N.eqb_spec len 0); [lia|]. reflexivity.
Qed.

Lemma slice_poke_other : forall buf off o2 n, off < lenN buf -> (o2 + n <= off \/ off + 1 <= o2) ->
  sliceN o2 n (poke_dup buf off) = sliceN o2 n buf.
Proof.
  intros buf off o2 n H Hd. rewrite poke_dup_overwrite by exact H. destruct Hd.
  - apply slice_overwrite_before; lia.
  - apply slice_overwrite_after; cbn [lenN lenN_acc]; lia.
Qed.

Lemma poke_all_spec : forall es buf lo used,
  wf_layout lo es used -> used <= lenN buf ->
  let buf' := fold_left (fun b e => poke_dup b (re_off e)) es buf in
  lenN buf' = lenN buf /\
  map (entry_bytes buf') es = map dup_bytes (map (entry_bytes buf) es) /\
  (forall o n, o + n <= lo -> sliceN o n buf' = sliceN o n buf).
Proof.
  induction es as [|e t IH]; intros buf lo used W U; cbn [fold_left map].
  - repeat split; reflexivity.
  - cbn [wf_layout] in W. destruct W as [W1 [W2 W3]]. pose proof (wf_layout_le _ _ _ W3) as Hle.
    set (b1 := poke_dup buf (re_off e)).
    assert (L1 : lenN b1 = lenN buf) by apply lenN_poke_dup.
    specialize (IH b1 (re_off e + re_len e) used W3 ltac:(lia)). cbn zeta in IH.
    destruct IH as [I1 [I2 I3]]. cbn zeta. refine (conj _ (conj _ _)).
    + lia.
    + f_equal.
      * unfold entry_bytes at 1. rewrite I3 by lia. unfold b1, entry_bytes. apply slice_poke_head; lia.
      * rewrite I2. f_equal. apply (entry_bytes_ext _ _ _ _ _ W3). intros o n Ho _. apply slice_poke_other; lia.
    + intros o n Ho. rewrite I3 by lia. unfold b1. apply slice_poke_other; lia.
Qed.

Lemma dup_abs_maps : forall b b' es,
  map (entry_bytes b') es = map dup_bytes (map (entry_bytes b) es) ->
  map (abs_entry b') es = map dup_aentry (map (abs_entry b) es).
Proof.
  intros b b' es H. rewrite map_map in *. eapply (map_eq3 _ _ re_pid re_pid re_st re_st); [exact H | reflexivity..|].
  intros. unfold abs_entry, dup_aentry. congruence.
Qed.

Lemma mark_retained_dup_spec : forall o, arena_wf o ->
  arena_wf (mark_retained_dup o) /\ abs (mark_retained_dup o) = map dup_aentry (abs o) /\
  ob_ret (mark_retained_dup o) = ob_ret o /\ ob_ctl (mark_retained_dup o) = ob_ctl o /\
  ob_rel (mark_retained_dup o) = ob_rel o /\ ob_used (mark_retained_dup o) = ob_used o /\
  lenN (ob_buf (mark_retained_dup o)) = lenN (ob_buf o).
Proof.
  intros o [W U]. pose proof (poke_all_spec (ob_ret o) (ob_buf o) 0 (ob_used o) W U) as H. cbn zeta in H.
  destruct H as [H1 [H2 H3]]. unfold mark_retained_dup, arena_wf, abs. cbn [ob_buf ob_used ob_ret ob_ctl ob_rel].
  refine (conj (conj W _) (conj _ (conj eq_refl (conj eq_refl (conj eq_refl (conj eq_refl H1)))))); [lia|].
  apply dup_abs_maps. exact H2.
Qed.

Lemma glen_map : forall {A B} (f : A -> B) l, glen (map f l) = glen l.
Proof. intros. rewrite !glen_length, map_length. reflexivity. Qed.

Lemma update_first_map : forall {A B} (g : A -> B) (p : A -> bool) (f : A -> A) l,
  (forall x, g (f x) = g x) -> map g (fst (update_first p f l)) = map g l.
Proof.
  intros A B g p f l H. induction l as [|x t IH]; cbn [update_first map fst]; [reflexivity|].
  destruct (p x); cbn [fst map]; [now rewrite H|].
  destruct (update_first p f t) as [t' b]. cbn [fst map] in *. now rewrite IH.
Qed.
Lemma update_first_glen : forall {A} (p : A -> bool) (f : A -> A) l, glen (fst (update_first p f l)) = glen l.
Proof.
  intros. rewrite <- (glen_map (fun _ => tt)), <- (glen_map (fun _ => tt) l).
  now rewrite update_first_map.
Qed.

Lemma filter_glen_le : forall {A} (f : A -> bool) l, glen (filter f l) <= glen l.
Proof.
  intros A f l. induction l as [|x t IH]; cbn [filter glen]; [lia|].
  destruct (f x); cbn [glen]; lia.
Qed.

Lemma fst_let_pair : forall {A B C} (x : A * B) (f : A -> C) , (let '(l, b) := x in (f l, b)) = (f (fst x), snd x).
Proof. intros A B C [a b] f. reflexivity. Qed.

(* what stays when send states change and flushed control entries leave (the engine's bookkeeping after a write or a
   flush); actions and reason codes stay too but are not needed *)
Definition states_only (o o' : outbound) : Prop :=
  ob_buf o' = ob_buf o /\ ob_used o' = ob_used o /\
  map re_pid (ob_ret o') = map re_pid (ob_ret o) /\ map re_off (ob_ret o') = map re_off (ob_ret o) /\
  map re_len (ob_ret o') = map re_len (ob_ret o) /\ map le_pid (ob_rel o') = map le_pid (ob_rel o) /\
  glen (ob_rel o') = glen (ob_rel o) /\ glen (ob_ctl o') <= glen (ob_ctl o).

Lemma with_ctl_states : forall o l, glen l <= glen (ob_ctl o) -> states_only o (with_ctl o l).
Proof. intros o l H. repeat split; try reflexivity. exact H. Qed.
Lemma with_ret_states : forall o (p : rentry -> bool) st,
  states_only o (with_ret o (fst (update_first p (fun e => {| re_pid := re_pid e; re_off := re_off e; re_len := re_len e; re_st := st |}) (ob_ret o)))).
Proof. intros. repeat split; cbn [with_ret ob_ret]; try reflexivity; try (apply update_first_map; reflexivity). Qed.
Lemma with_rel_states : forall o (p : lentry -> bool) st,
  states_only o (with_rel o (fst (update_first p (fun e => {| le_pid := le_pid e; le_rc := le_rc e; le_st := st |}) (ob_rel o)))).
Proof.
  intros. repeat split; cbn [with_rel ob_rel]; try reflexivity; try (apply update_first_map; reflexivity).
  apply update_first_glen.
Qed.

Lemma set_control_written_states : forall o a w len, states_only o (fst (set_control_written o a w len)).
Proof. intros. unfold set_control_written. rewrite fst_let_pair. cbn [fst]. apply with_ctl_states. rewrite update_first_glen. apply N.le_refl. Qed.
Lemma flush_control_states : forall o a, states_only o (fst (flush_control o a)).
Proof.
  intros. unfold flush_control. rewrite (fst_let_pair _ (fun l => with_ctl o (filter _ l))). cbn [fst]. apply with_ctl_states.
  eapply N.le_trans; [apply filter_glen_le|]. rewrite update_first_glen. apply N.le_refl.
Qed.
Lemma set_retained_written_states : forall o pid w len, states_only o (fst (set_retained_written o pid w len)).
Proof. intros. unfold set_retained_written. rewrite fst_let_pair. apply with_ret_states. Qed.
Lemma flush_retained_states : forall o pid, states_only o (fst (flush_retained o pid)).
Proof. intros. unfold flush_retained. rewrite fst_let_pair. apply with_ret_states. Qed.
Lemma set_release_written_states : forall o pid w len, states_only o (fst (set_release_written o pid w len)).
Proof. intros. unfold set_release_written. rewrite fst_let_pair. apply with_rel_states. Qed.
Lemma flush_release_states : forall o pid, states_only o (fst (flush_release o pid)).
Proof. intros. unfold flush_release. rewrite fst_let_pair. apply with_rel_states. Qed.

Lemma arm_replay_cases : forall o, arm_replay o = o \/ states_only (mark_retained_dup o) (arm_replay o).
Proof.
  intros o. unfold arm_replay. destruct (negb _); [now left | right].
  repeat split; cbn [ob_buf ob_used ob_ret ob_rel ob_ctl]; rewrite ?map_map, ?glen_map; reflexivity.
Qed.
