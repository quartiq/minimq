(* C19_proofs.v — C19: the property validity table is MQTT 5's; an invalid request is refused and leaves no trace;
   the QoS of a publication is capped by the broker's Maximum QoS when the configuration asks for it. *)
From Coq Require Import Lia ZifyBool.
From Minimq Require Import Util Bytes Varint Props Ser Arena Core Spec Machine.

Lemma table_eq : forall k c, kind_valid_for k c = client_may_send k c.
Proof. destruct k; destruct c; reflexivity. Qed.

Lemma values_eq : forall p, has_valid_value p = legal_value p.
Proof.
  intros p. unfold has_valid_value, legal_value, VARINT_MAX.
  destruct (pk p); try reflexivity; lia.
Qed.

Lemma is_valid_for_spec : forall p c, is_valid_for p c = legal_value p && client_may_send (pk p) c.
Proof. intros. unfold is_valid_for. now rewrite table_eq, values_eq. Qed.

Lemma props_valid_for_slice : forall l c,
  props_valid_for (PSlice l) c = forallb (fun p => legal_value p && client_may_send (pk p) c) l.
Proof.
  intros l c. unfold props_valid_for, props_iter. rewrite forallb_map_some. 
  apply forallb_ext'. intros p. apply is_valid_for_spec.
Qed.

Lemma publish_invalid_no_trace : forall s live r,
  props_valid_for (pr_props r) CtxPublish = false ->
  publish_middle s live r = (s, MErr EInvalidRequest).
Proof. intros s live r H. unfold publish_middle. now rewrite H. Qed.

Lemma op_publish_invalid : forall fuel r w w1,
  w_live w = true ->
  props_valid_for (pr_props r) CtxPublish = false ->
  flush_outbound fuel w = (w1, ODone tt) ->
  op_publish fuel r w = (w1, OFail EInvalidRequest).
Proof.
  intros fuel r w w1 Hl Hv Hf. unfold op_publish. rewrite Hl. cbn [negb].
  rewrite Hf. cbn [bindu]. rewrite publish_invalid_no_trace by exact Hv.
  cbn [finish_mid]. destruct w1; reflexivity.
Qed.

(* the guard subscribe and unsubscribe share *)
Lemma guarded_invalid : forall {T A} (live valid : bool) (topics : list T) (w : world) (k : world * outcome A),
  live = true -> topics = [] \/ valid = false ->
  (if negb live then (w, OFail EDisconnected) else
   match topics with [] => (w, OFail EInvalidRequest) | _ => if negb valid then (w, OFail EInvalidRequest) else k end)
  = (w, OFail EInvalidRequest).
Proof. intros T A live valid topics w k -> [->| ->]; [reflexivity|]. now destruct topics. Qed.

Lemma op_subscribe_invalid : forall fuel topics ps w,
  w_live w = true ->
  topics = [] \/ props_valid_for (PSlice ps) CtxSubscribe = false ->
  op_subscribe fuel topics ps w = (w, OFail EInvalidRequest).
Proof. intros fuel topics ps w Hl H. unfold op_subscribe. now apply guarded_invalid. Qed.

Lemma op_unsubscribe_invalid : forall fuel topics ps w,
  w_live w = true ->
  topics = [] \/ props_valid_for (PSlice ps) CtxUnsubscribe = false ->
  op_unsubscribe fuel topics ps w = (w, OFail EInvalidRequest).
Proof. intros fuel topics ps w Hl H. unfold op_unsubscribe. now apply guarded_invalid. Qed.

Lemma op_disconnect_invalid : forall fuel r l w,
  w_live w = true ->
  props_valid_for (PSlice l) CtxDisconnect = false ->
  op_disconnect fuel {| dq_reason := r; dq_props := Some l |} w = (w, OFail EInvalidRequest).
Proof.
  intros fuel r l w Hl Hv. unfold op_disconnect. rewrite Hl. cbn [negb].
  unfold disconnect_prepare. cbn [dq_props]. now rewrite Hv.
Qed.

Lemma dead_handle_refused : forall fuel w, w_live w = false ->
  (forall r, op_publish fuel r w = (w, OFail EDisconnected)) /\
  (forall t ps, op_subscribe fuel t ps w = (w, OFail EDisconnected)) /\
  (forall t ps, op_unsubscribe fuel t ps w = (w, OFail EDisconnected)) /\
  (forall d, op_disconnect fuel d w = (w, ODone tt)).
Proof.
  intros fuel w Hl. repeat split; intros;
    [unfold op_publish|unfold op_subscribe|unfold op_unsubscribe|unfold op_disconnect]; now rewrite Hl.
Qed.

Lemma downgrade_caps : forall s q m,
  cf_downgrade (s_cfg s) = true -> rt_maxqos (s_rt s) = Some m ->
  qos_n (effective_qos s q) <= qos_n m.
Proof.
  intros s q m Hd Hm. unfold effective_qos, qos_ltb. rewrite Hm, Hd. cbn [andb].
  destruct (qos_n m <? qos_n q) eqn:E; lia.
Qed.

Lemma no_downgrade_unchanged : forall s q, cf_downgrade (s_cfg s) = false -> effective_qos s q = q.
Proof. intros s q Hd. unfold effective_qos. rewrite Hd. now destruct (rt_maxqos (s_rt s)). Qed.

Lemma handle_matches_qos : forall s live r s' o,
  publish_middle s live r = (s', MRetained o) ->
  op_kind o = match effective_qos s (pr_qos r) with Q2 => 1 | _ => 0 end
  /\ effective_qos s (pr_qos r) <> Q0.
Proof.
  intros s live r s' o. unfold publish_middle.
  destruct (props_valid_for (pr_props r) CtxPublish); cbn [negb]; [|discriminate].
  destruct (effective_qos s (pr_qos r)) eqn:Eq.
  1: { destruct (negb _); [discriminate|]. destruct (enc_publish _ _); [|discriminate].
       destruct (too_large _ _); [discriminate|]. destruct (negb live); discriminate. }
  (* QoS 1 and QoS 2 take the same path *)
  all: destruct (next_packet_id s) as [s1 id];
    destruct (retained_full _); [discriminate|]; destruct (negb _); [discriminate|];
    destruct (encode_at _ _) as [o1 er]; destruct er; [|discriminate];
    destruct (too_large _ _); [discriminate|]; destruct (retain_packet _ _ _ _); [|discriminate];
    intros H; inversion H; subst; cbn [op_kind]; split; [reflexivity|discriminate].
Qed.
