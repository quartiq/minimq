(* Pings.v — the drain on EVERY transport, slow writes included (script kinds 4 / 5: time passes inside write()).
   When the clock moves inside the drain a PINGREQ can fall due in the middle of it — even in the middle of a packet.  It joins
   the control queue; the entry in progress is finished first; at most one PINGREQ joins (none is queued while one is queued or
   outstanding).  So what a completed drain has put on the wire is `owed` with at most one PINGREQ inserted:
       wire' = wire ++ owed        or        owed = A ++ B  and  wire' = wire ++ A ++ [0xC0; 0x00] ++ B
   (that the insertion point is a packet boundary is C01's theorem, which holds for every script). *)
From Minimq Require Import Bytes Ser Arena Core Machine Run
  WireInv Wire Terminate ConnectOk PingQuiet Owed Sends.
Import ListNotations.
Local Open Scope N_scope.

Theorem step_prefix : forall st now w w' r,
  WInv (w_sess w) -> next_step (s_ob (w_sess w)) = Some st ->
  perform_outbound_step st now w = (w', r) -> not_failed r ->
  exists P, w_wire w' = w_wire w ++ P /\ owed (s_ob (w_sess w)) = P ++ owed (s_ob (w_sess w')).
Proof. exact step_moves. Qed.

Lemma owed_queue_control : forall o a o', queue_control o a = Some o' ->
  exists A B, owed o = A ++ B /\ owed o' = A ++ ctl_bytes a ++ B.
Proof. exact owed_queued. Qed.

Definition NoMorePing (s : session) : Prop :=
  rt_ping_timeout (s_rt s) <> None \/ has_pending_pingreq (s_ob s) = true.

Lemma nmp_budget : forall s, NoMorePing s <-> pbudget s = 0.
Proof.
  intros s. unfold NoMorePing, pbudget. destruct (rt_ping_timeout (s_rt s)); [split; [reflexivity|left; discriminate]|].
  destruct (has_pending_pingreq (s_ob s)).
  - split; [reflexivity|right; reflexivity].
  - split; [intros [H|H]; [congruence|discriminate]|discriminate].
Qed.

(* no PQ here: whatever time the writes take *)
Theorem flush_outbound_wire_nmp_full : forall fuel w w',
  WInv (w_sess w) -> NoMorePing (w_sess w) -> flush_outbound fuel w = (w', ODone tt) ->
  w_wire w' = w_wire w ++ owed (s_ob (w_sess w)) /\ next_step (s_ob (w_sess w')) = None /\
  NoMorePing (w_sess w') /\ WInv (w_sess w').
Proof.
  intros fuel w w' I N H. destruct (drain_master _ _ _ _ I H Logic.I) as [_ [I' [Hn [Hnmp _]]]]. specialize (Hn eq_refl).
  destruct (Hnmp (proj1 (nmp_budget _) N)) as [T N']. split; [apply done_wire; assumption|]. split; [exact Hn|]. split; [apply nmp_budget; exact N'|exact I'].
Qed.

Theorem flush_outbound_wire_nmp : forall fuel w w',
  WInv (w_sess w) -> NoMorePing (w_sess w) -> flush_outbound fuel w = (w', ODone tt) ->
  w_wire w' = w_wire w ++ owed (s_ob (w_sess w)) /\ next_step (s_ob (w_sess w')) = None.
Proof. intros fuel w w' I Hp H. destruct (flush_outbound_wire_nmp_full _ _ _ I Hp H) as [A [B _]]. split; assumption. Qed.

Definition PINGREQ_BYTES : bytes := [192; 0].

Theorem flush_outbound_wire_every_full : forall fuel w w',
  WInv (w_sess w) -> flush_outbound fuel w = (w', ODone tt) ->
  (w_wire w' = w_wire w ++ owed (s_ob (w_sess w)) \/
   exists A B, owed (s_ob (w_sess w)) = A ++ B /\ w_wire w' = w_wire w ++ A ++ PINGREQ_BYTES ++ B /\ NoMorePing (w_sess w')) /\
  next_step (s_ob (w_sess w')) = None /\ WInv (w_sess w') /\ (NoMorePing (w_sess w) -> NoMorePing (w_sess w')).
Proof.
  intros fuel w w' I H. destruct (drain_master _ _ _ _ I H Logic.I) as [[Y [Hi [HT HY]]] [I' [Hn [Hnmp _]]]]. specialize (Hn eq_refl).
  unfold total in HT. rewrite (owed_no_step _ Hn), app_nil_r in HT.
  split; [|split; [exact Hn|split; [exact I'|intros N; apply nmp_budget; exact (proj2 (Hnmp (proj1 (nmp_budget _) N)))]]].
  destruct Hi as [->|[A [B [E1 ->]]]]; [left; exact HT|right]. exists A, B. split; [exact E1|]. split; [exact HT|].
  destruct HY as [E|N']; [|apply nmp_budget; exact N'].
  (* a PINGREQ was inserted: the stream is not what was owed *)
  exfalso. rewrite E1 in E. apply (f_equal (@length N)) in E. rewrite !app_length in E. change (length (ctl_bytes CPing)) with 2%nat in E. lia.
Qed.

Theorem flush_outbound_wire_every_transport : forall fuel w w',
  WInv (w_sess w) -> flush_outbound fuel w = (w', ODone tt) ->
  (w_wire w' = w_wire w ++ owed (s_ob (w_sess w)) \/
   exists A B, owed (s_ob (w_sess w)) = A ++ B /\ w_wire w' = w_wire w ++ A ++ PINGREQ_BYTES ++ B) /\
  next_step (s_ob (w_sess w')) = None.
Proof.
  intros fuel w w' I H. destruct (flush_outbound_wire_every_full _ _ _ I H) as [[Hw|[A [B [E1 [Hw _]]]]] [Hn _]]; (split; [|exact Hn]).
  - left. exact Hw.
  - right. exists A, B. split; assumption.
Qed.

Lemma pframe_nmp : forall s s', pframe s s' -> NoMorePing s -> NoMorePing s'.
Proof.
  intros s s' [H1 [_ H3]] [H|H]; [left; rewrite H1; exact H|right]. unfold has_pending_pingreq in *. rewrite H3. exact H.
Qed.

Definition ins (X Y : bytes) : Prop := Y = X \/ exists A B, X = A ++ B /\ Y = A ++ PINGREQ_BYTES ++ B.

Lemma ins_app_l : forall P X Y, ins X Y -> ins (P ++ X) (P ++ Y).
Proof.
  intros P X Y [->|[A [B [-> ->]]]]; [left; reflexivity|right]. exists (P ++ A), B. rewrite <- !app_assoc. split; reflexivity.
Qed.
Lemma ins_app_r : forall S X Y, ins X Y -> ins (X ++ S) (Y ++ S).
Proof.
  intros S X Y [->|[A [B [-> ->]]]]; [left; reflexivity|right]. exists A, (B ++ S). rewrite <- !app_assoc. split; reflexivity.
Qed.

Lemma finish_retained_every : forall fuel w1 s2 bs o w',
  next_step (s_ob (w_sess w1)) = None ->
  WInv s2 -> pframe (w_sess w1) s2 -> owed (s_ob s2) = owed (s_ob (w_sess w1)) ++ bs ->
  finish_mid fuel (upd_sess w1 s2) (MRetained o) = (w', ODone (Some o)) ->
  (exists Y, ins bs Y /\ w_wire w' = w_wire w1 ++ Y) /\ (NoMorePing (w_sess w1) -> w_wire w' = w_wire w1 ++ bs) /\
  next_step (s_ob (w_sess w')) = None.
Proof.
  intros fuel w1 s2 bs o w' Hn I2 Hk Ho H. cbn [finish_mid] in H. unfold bindu in H.
  destruct (flush_outbound fuel (upd_sess w1 s2)) as [w3 o3] eqn:Ef. destruct o3 as [u|e| | |]; try discriminate. inversion H; subst w'. clear H.
  destruct u.
  assert (Eo : owed (s_ob (w_sess (upd_sess w1 s2))) = bs) by (cbn [w_sess upd_sess]; rewrite Ho, (owed_no_step _ Hn); reflexivity).
  destruct (flush_outbound_wire_every_full _ (upd_sess w1 s2) _ I2 Ef) as [Hd [Hn3 _]].
  split; [|split; [|exact Hn3]].
  - destruct Hd as [Hw|[A [B [E1 [Hw _]]]]].
    + exists bs. split; [left; reflexivity|]. rewrite Hw, Eo. reflexivity.
    + exists (A ++ PINGREQ_BYTES ++ B). split; [right; exists A, B; split; [rewrite <- Eo; exact E1|reflexivity]|]. rewrite Hw. reflexivity.
  - intros Hp. assert (N2 : NoMorePing (w_sess (upd_sess w1 s2))) by (cbn [w_sess upd_sess]; exact (pframe_nmp _ _ Hk Hp)).
    destruct (flush_outbound_wire_nmp _ (upd_sess w1 s2) _ I2 N2 Ef) as [Hw _]. rewrite Hw, Eo. reflexivity.
Qed.

Lemma op_shape_every : forall fuel mid E w w' op, RetMid mid E -> WInv (w_sess w) ->
  op_shape fuel mid w = (w', ODone (Some op)) ->
  exists w1 bs Y, flush_outbound fuel w = (w1, ODone tt) /\ E w1 op bs /\
    ins (owed (s_ob (w_sess w)) ++ bs) Y /\ w_wire w' = w_wire w ++ Y /\ next_step (s_ob (w_sess w')) = None.
Proof.
  intros fuel mid E w w' op HM I H. unfold op_shape, bindu in H.
  destruct (flush_outbound fuel w) as [w1 o1] eqn:E1. destruct o1 as [[]|e| | |]; try discriminate.
  destruct (flush_outbound_wire_every_full _ _ _ I E1) as [Hd1 [Hn1 [I1 _]]].
  destruct (mid w1) as [s2 m] eqn:Em. pose proof (finish_mid_some _ _ _ _ _ H) as Hm. subst m.
  destruct (HM _ _ _ I1 Em) as [I2 [Hk [bs [Hb Ho]]]].
  destruct (finish_retained_every fuel w1 s2 bs op w' Hn1 I2 Hk Ho H) as [[Y2 [Hi2 Hw2]] [Hnmp Hn]].
  (* a PINGREQ joined during the first drain, or during the second, or not at all: never twice *)
  destruct Hd1 as [Hw1|[A [B [Eab [Hw1 N1]]]]].
  - exists w1, bs, (owed (s_ob (w_sess w)) ++ Y2). split; [reflexivity|]. split; [exact Hb|].
    split; [apply ins_app_l; exact Hi2|]. split; [|exact Hn]. rewrite Hw2, Hw1, <- app_assoc. reflexivity.
  - exists w1, bs, ((A ++ PINGREQ_BYTES ++ B) ++ bs). split; [reflexivity|]. split; [exact Hb|].
    split; [apply ins_app_r; right; exists A, B; split; [exact Eab|reflexivity]|]. split; [|exact Hn].
    rewrite (Hnmp N1), Hw1, <- !app_assoc. reflexivity.
Qed.

Theorem op_publish_wire_every_transport : forall fuel r w w' op,
  WInv (w_sess w) -> op_publish fuel r w = (w', ODone (Some op)) ->
  exists w1 bs cap off Y,
    flush_outbound fuel w = (w1, ODone tt) /\
    enc_publish cap (pub_request r (effective_qos (w_sess w1) (pr_qos r)) (op_pid op)) = SOk off bs /\
    ins (owed (s_ob (w_sess w)) ++ bs) Y /\ w_wire w' = w_wire w ++ Y /\ next_step (s_ob (w_sess w')) = None.
Proof.
  intros fuel r w w' op I H. unfold op_publish in H. destruct (negb (w_live w)); [discriminate|].
  destruct (op_shape_every fuel _ _ w w' op (RetMid_publish r) I H) as [w1 [bs [Y [E1 [[cap [off Hb]] Hw]]]]].
  exists w1, bs, cap, off, Y. auto.
Qed.

Theorem op_subscribe_wire_every_transport : forall fuel topics ps w w' op,
  WInv (w_sess w) -> op_subscribe fuel topics ps w = (w', ODone (Some op)) ->
  exists bs cap off Y,
    enc_subscribe cap {| sq_pid := op_pid op; sq_props := ps; sq_topics := topics |} = SOk off bs /\
    ins (owed (s_ob (w_sess w)) ++ bs) Y /\ w_wire w' = w_wire w ++ Y /\ next_step (s_ob (w_sess w')) = None.
Proof.
  intros fuel topics ps w w' op I H. apply op_subscribe_shape in H; [|exact Logic.I].
  destruct (op_shape_every fuel _ _ w w' op (RetMid_subscribe topics ps) I H) as [w1 [bs [Y [_ [[cap [off Hb]] Hw]]]]]. exists bs, cap, off, Y. auto.
Qed.

Theorem op_unsubscribe_wire_every_transport : forall fuel topics ps w w' op,
  WInv (w_sess w) -> op_unsubscribe fuel topics ps w = (w', ODone (Some op)) ->
  exists bs cap off Y,
    enc_unsubscribe cap {| uq_pid := op_pid op; uq_props := ps; uq_topics := topics |} = SOk off bs /\
    ins (owed (s_ob (w_sess w)) ++ bs) Y /\ w_wire w' = w_wire w ++ Y /\ next_step (s_ob (w_sess w')) = None.
Proof.
  intros fuel topics ps w w' op I H. apply op_unsubscribe_shape in H; [|exact Logic.I].
  destruct (op_shape_every fuel _ _ w w' op (RetMid_unsubscribe topics ps) I H) as [w1 [bs [Y [_ [[cap [off Hb]] Hw]]]]]. exists bs, cap, off, Y. auto.
Qed.

(* computed: keep-alive 1 s (PINGREQ due 500 ms after the CONNECT); the first write of a QoS 1 publish lasts 800 ms and takes one
   byte, the rest goes two bytes at a time: the PINGREQ falls due in the middle of the PUBLISH and is written behind it *)
Definition ex_cfg1 : config :=
  {| cf_rx := 64; cf_tx := 128; cf_client_id := [99]; cf_keepalive_s := 1; cf_expiry := 0;
     cf_downgrade := false; cf_will := None; cf_auth := None |}.
Definition ex_k1 : world := run_case {| c_cfg := ex_cfg1; c_prog := [ASetBroker 2; AConnect []; ASetBroker 0]; c_script := [] |}.
Definition ex_slow : world := upd_script ex_k1 ((4, 800) :: repeat (0, 2) 40).
Example slow_write_example :
  rt_next_ping (s_rt (w_sess ex_slow)) = Some 500 /\
  snd (op_publish FUEL ex_pub ex_slow) = ODone (Some {| op_kind := 0; op_pid := 1; op_gen := 1 |}) /\
  w_now (fst (op_publish FUEL ex_pub ex_slow)) = 800 /\
  w_wire (fst (op_publish FUEL ex_pub ex_slow)) = w_wire ex_slow ++ [50; 9; 0; 1; 116; 0; 1; 0; 1; 2; 3] ++ PINGREQ_BYTES.
Proof. vm_compute. repeat split. Qed.
