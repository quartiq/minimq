(* ConnectOk.v — C12, the positive half: on a healthy transport (every I/O call succeeds in full) with the conformant
   automatic broker (mode 2), connect() runs to completion in EVERY session state in which the CONNECT fits the free
   tail of the transmit arena — whatever happened on earlier connections.  The walk through op_connect is made once,
   for any one whole packet the write leaves waiting (connect_on_healthy); the broker's answer is put in afterwards. *)
From Coq Require Import List NArith Lia.
From Minimq Require Import Bytes Varint Props Ser De Reader Arena Core Machine Run Util
  VarintProofs SerLemmas CodecProofs Reconnect Io Behaving.
Import ListNotations.
Local Open Scope N_scope.

Definition connect_head (fl : N) : bytes := [0; 4; 77; 81; 84; 84; 5; fl].

Lemma connect_layout : forall cap r off bs, enc_connect cap r = SOk off bs ->
  exists rl rest, bs = 16 :: rl ++ connect_head (connect_flags r) ++ rest /\
                  varint_write (lenN (connect_head (connect_flags r) ++ rest)) = Some rl.
Proof.
  intros cap r off bs H. unfold enc_connect in H. destruct (encode_chunks_inv _ _ _ _ _ _ H) as [rl [body [Hc [Hv [Hb _]]]]].
  assert (Hs : exists tl, connect_chunks r = [c_str MQTT_NAME; c_u8 5; c_u8 (connect_flags r)] ++ tl).
  { unfold connect_chunks. eexists. cbn [app]. reflexivity. }
  destruct Hs as [tl Hs]. rewrite Hs, concat_chunks_app in Hc.
  change (concat_chunks [c_str MQTT_NAME; c_u8 5; c_u8 (connect_flags r)]) with (Some (connect_head (connect_flags r))) in Hc.
  destruct (concat_chunks tl) as [rest|]; [|discriminate].
  inversion Hc; subst body. exists rl, rest. split; [exact Hb|exact Hv].
Qed.

(* what the automatic broker (mode 2) answers to a whole CONNECT: session present exactly when clean start (bit 1) is off *)
Definition connack_for (fl : N) : bytes := [32; 3; (if N.testbit fl 1 then 0 else 1); 0; 0].

Lemma broker_split_connect : forall fl rl rest,
  varint_write (lenN (connect_head fl ++ rest)) = Some rl ->
  let bs := 16 :: rl ++ connect_head fl ++ rest in
  broker_split 2 (S (length bs)) bs [] = (connack_for fl, []).
Proof.
  intros fl rl rest Hv bs. cbn [broker_split]. unfold bs at 1.
  rewrite (varint_roundtrip _ _ (connect_head fl ++ rest) Hv).
  destruct (N.ltb_spec (lenN (connect_head fl ++ rest)) (lenN (connect_head fl ++ rest))) as [L|L]; [lia|].
  replace (1 + (lenN (rl ++ connect_head fl ++ rest) - lenN (connect_head fl ++ rest)) + lenN (connect_head fl ++ rest)) with (lenN bs)
    by (unfold bs; rewrite lenN_cons, !lenN_app; lia).
  rewrite (dropN_all bs (lenN bs)) by lia. rewrite (takeN_all bs (lenN bs)) by lia.
  assert (Hr : broker_reply 2 bs = connack_for fl).
  { unfold broker_reply, bs. rewrite (varint_roundtrip _ _ (connect_head fl ++ rest) Hv).
    change (16 / 16) with 1. cbn [N.eqb Pos.eqb andb orb]. cbn [connect_head app dropN]. reflexivity. }
  rewrite Hr. cbn [app]. destruct (length bs); reflexivity.
Qed.

(* the part of the world the I/O primitives depend on, besides the ghost fields and the log *)
Definition env_eq (a b : world) : Prop :=
  w_sess b = w_sess a /\ w_script b = w_script a /\ w_inq b = w_inq a /\ w_txbuf b = w_txbuf a /\
  w_broker b = w_broker a /\ w_now b = w_now a /\ w_last_arrival b = w_last_arrival a.

Definition BIG : N := 1000000000.

Lemma io_write_connect : forall w fl rl rest,
  w_script w = [] -> w_broker w = 2 -> w_txbuf w = [] ->
  varint_write (lenN (connect_head fl ++ rest)) = Some rl ->
  let bs := 16 :: rl ++ connect_head fl ++ rest in
  lenN bs <= BIG ->
  exists w1, io_write bs w = (w1, WOk (lenN bs)) /\
    w_sess w1 = w_sess w /\ w_script w1 = [] /\ w_txbuf w1 = [] /\ w_broker w1 = 2 /\ w_now w1 = w_now w /\
    w_inq w1 = w_inq w ++ [(N.max (w_now w) (w_last_arrival w), connack_for fl)] /\
    w_last_arrival w1 = N.max (w_now w) (w_last_arrival w).
Proof.
  intros w fl rl rest Hs Hb Ht Hv bs Hl. rewrite (io_write_nil bs w Hs ltac:(discriminate) Hl).
  eexists. split; [reflexivity|].
  unfold broker_feed. cbn [w_broker w_txbuf upd_wire upd_log upd_script]. rewrite Hb, Ht. cbn [N.eqb Pos.eqb app].
  pose proof (broker_split_connect fl rl rest Hv) as Hsp. cbv zeta in Hsp. fold bs in Hsp. rewrite Hsp.
  change (connack_for fl) with [32; 3; (if N.testbit fl 1 then 0 else 1); 0; 0]. repeat split; assumption.
Qed.

Lemma io_read_healthy : forall win w t d,
  win <> 0 -> w_script w = [] -> w_inq w = [(t, d)] -> t <= w_now w -> d <> [] -> lenN d <= BIG ->
  let n := N.min win (lenN d) in
  exists w1, io_read win None w = (w1, RData (takeN n d)) /\
    w_sess w1 = w_sess w /\ w_script w1 = [] /\ w_now w1 = w_now w /\
    w_inq w1 = match dropN n d with [] => [] | r => [(w_now w, r)] end.
Proof.
  intros win w t d Hw Hs Hi Ht Hd Hl n. rewrite (io_read_arrived None win w t d Hw Hs Hi Ht Hd Hl). fold n.
  eexists. now repeat split.
Qed.

Lemma connack_decodes : forall b, from_buffer [32; 3; (if b : bool then 0 else 1); 0; 0] = Some (RConnAck (negb b) 0 []).
Proof. intros []; vm_compute; reflexivity. Qed.

Lemma FUEL_big : exists f, FUEL = S (S (S (S (S f)))).
Proof. unfold FUEL. eexists. reflexivity. Qed.

(* FUEL is written as a product of small numerals, and lia takes it as that; evaluated it is a large unary numeral *)
Lemma fuel_enough : forall n, n <= 29000 -> (N.to_nat n + 6 <= FUEL)%nat.
Proof. intros n H. unfold FUEL. lia. Qed.

Lemma fuel_room : forall n, n <= 29000 -> (N.to_nat n + 2 <= FUEL)%nat.
Proof. intros n H. unfold FUEL. lia. Qed.

Lemma connect_flags_clean : forall r, N.testbit (connect_flags r) 1 = cq_clean r.
Proof.
  intros [ka ps cid au wl cl]. unfold connect_flags. cbn [cq_clean cq_will cq_auth].
  destruct cl, au, wl as [[? ? [] [] ?]|]; vm_compute; reflexivity.
Qed.

(* what connect() makes of the broker's answer once it has been taken out of the reader *)
Definition connack_outcome (w : world) (p : option rpacket) : world * outcome N :=
  let '(s6, cr) := connack_process (w_sess w) p (w_now w) in
  match cr with
  | CAOk resumed =>
      (upd_envok (upd_sess w s6)
         (w_envok w && (if resumed then unresolved_publishes (s_ob s6) <=? rt_maxquota (s_rt s6) else true)),
       ODone (if resumed then 1 else 0))
  | CAErr e true => (sess_hd (upd_sess w s6), OFail e)
  | CAErr e false => (upd_sess w s6, OFail e)
  end.

Lemma connack_outcome_ok : forall w p sp, snd (connack_process (w_sess w) p (w_now w)) = CAOk sp ->
  exists w', connack_outcome w p = (w', ODone (if sp then 1 else 0)).
Proof.
  intros w p sp H. unfold connack_outcome. destruct (connack_process _ _ _) as [s6 cr]. cbn [snd] in H. subst cr.
  eexists. reflexivity.
Qed.

(* `wa` is the world the write leaves; `w6` differs from it in the session (preamble applied, timers cleared, reader
   empty again), the consumed queue, the script and what reads touch *)
Theorem connect_on_healthy : forall fuel w off bs h rl body t,
  w_script w = [] ->
  let s2 := connect_scratch (w_sess w) in
  enc_connect (ob_cap (s_ob s2) - ob_used (s_ob s2)) (connect_request s2) = SOk off bs -> lenN bs <= BIG ->
  varint_write (lenN body) = Some rl ->
  let pkt := h :: rl ++ body in
  lenN pkt <= rcap (s_reader (w_sess w)) -> lenN pkt <= BIG -> (N.to_nat (lenN pkt) + 2 <= fuel)%nat ->
  let wa := fst (io_write bs (upd_sess w s2)) in
  w_inq wa = [(t, pkt)] -> t <= w_now w ->
  exists w6, op_connect fuel w = connack_outcome w6 (from_buffer pkt) /\
    w_sess w6 = set_rt s2 (rt_with_timers (s_rt s2) None None) /\
    w_inq w6 = [] /\ w_script w6 = [] /\ w_now w6 = w_now w /\ read_keeps (upd_sess wa (w_sess w6)) w6.
Proof.
  intros fuel w off bs h rl body t Hs s2 Henc Hl Hrl pkt Hcap HB Hf wa Hi Ht.
  assert (Hne : bs <> []) by (destruct (connect_layout _ _ _ _ Henc) as [rl0 [rest [E _]]]; rewrite E; discriminate).
  assert (Hp1 : 1 <= lenN pkt) by (unfold pkt; rewrite lenN_cons; lia).
  destruct fuel as [|[|f]]; [lia|lia|].
  unfold op_connect. fold (connect_preamble (w_sess w)).
  change (set_ob (connect_preamble (w_sess w)) (compact (s_ob (connect_preamble (w_sess w))))) with s2.
  change (compact (s_ob (connect_preamble (w_sess w)))) with (s_ob s2). rewrite Henc.
  set (w2 := upd_sess w s2) in *.
  destruct (io_write_nil_other bs w2 Hs Hne Hl) as [Ra [Sa [Na _]]]. pose proof (io_write_frame bs w2) as Fa. fold wa in Sa, Na, Fa.
  assert (Ea : io_write bs w2 = (wa, WOk (lenN bs))) by (rewrite <- Ra; apply surjective_pairing).
  unfold direct_send. cbn [write_all]. destruct bs as [|b0 bt] eqn:Eb; [contradiction|]. rewrite <- Eb in *.
  rewrite Ea. destruct (N.eqb_spec (lenN bs) 0) as [E0|_]; [rewrite Eb, lenN_cons in E0; lia|].
  rewrite (dropN_all bs (lenN bs)) by apply N.le_refl. cbn [write_all bindu].
  rewrite (io_flush_nil wa Sa). cbn [bindu].
  set (wb := upd_log (upd_script wa []) _).
  set (w5 := upd_sess wb (set_rt (w_sess wb) (rt_with_timers (s_rt (w_sess wb)) None None))).
  assert (S5 : w_sess w5 = set_rt s2 (rt_with_timers (s_rt s2) None None))
    by (cbn [w5 wb w_sess upd_sess upd_log upd_script]; rewrite (fr_sess _ _ Fa); reflexivity).
  (* the reader assembles the answer *)
  destruct (fill_arrived h rl body Hrl None (N.to_nat (lenN pkt)) (S (S f)) w5 0 t) as [w6 [E6 [D6 [P6 [K6 [S6 [Q6 [C6 N6]]]]]]]].
  { apply holds_empty; rewrite S5; [reflexivity|reflexivity|exact Hcap]. }
  { fold pkt. lia. } { exact Hf. } { reflexivity. } { exact HB. }
  { intros _. fold pkt. rewrite dropN_0. split; [exact Hi|]. cbn [w5 wb w_now upd_sess upd_log upd_script]. rewrite Na. exact Ht. }
  { fold pkt. intros E. lia. }
  fold pkt in D6, P6. rewrite E6. unfold take_packet. rewrite P6, D6, (takeN_all pkt (lenN pkt)) by apply N.le_refl.
  pose proof (fill_reads (S (S f)) None w5) as R6. rewrite E6 in R6. destruct R6 as [[F6 [W6 [T6 A6]]] _].
  cbn [fst w_wire w_txbuf w_last_arrival upd_sess] in W6, T6, A6. destruct F6.
  cbn [w_sess w_conn w_live w_event w_broker w_handles w_envok w_poison w_drained upd_sess] in *.
  exists (upd_sess w6 (set_reader (w_sess w6) (reader_reset (s_reader (w_sess w6))))).
  split; [reflexivity|]. cbn [w_sess w_inq w_script w_now upd_sess].
  split; [unfold reader_reset; rewrite K6, S6, S5; reflexivity|]. split; [exact Q6|]. split; [exact C6|].
  split; [rewrite N6; cbn [w5 wb w_now upd_sess upd_log upd_script]; exact Na|].
  now repeat split.
Qed.

Theorem connect_succeeds : forall w off bs,
  w_script w = [] -> w_broker w = 2 -> w_inq w = [] -> w_txbuf w = [] -> w_last_arrival w <= w_now w ->
  5 <= rcap (s_reader (w_sess w)) ->
  let s2 := connect_scratch (w_sess w) in
  enc_connect (ob_cap (s_ob s2) - ob_used (s_ob s2)) (connect_request s2) = SOk off bs -> lenN bs <= BIG ->
  exists w', op_connect FUEL w = (w', ODone (if s_sp (w_sess w) then 1 else 0)).
Proof.
  intros w off bs Hs Hb Hi Ht Hla Hc s2 He Hl.
  destruct (connect_layout _ _ _ _ He) as [rl [rest [Ebs Hv]]].
  set (fl := connect_flags (connect_request s2)) in *.
  destruct (io_write_connect (upd_sess w s2) fl rl rest Hs Hb Ht Hv) as [w3 [Ew [_ [_ [_ [_ [_ [I3 _]]]]]]]];
    [rewrite <- Ebs; exact Hl|].
  rewrite <- Ebs in Ew. cbn [w_now w_inq w_last_arrival upd_sess] in I3. rewrite Hi, (N.max_l _ _ Hla) in I3.
  destruct (connect_on_healthy FUEL w off bs 32 [3] [if N.testbit fl 1 then 0 else 1; 0; 0] (w_now w) Hs He Hl eq_refl)
    as [w6 [E _]].
  - exact Hc.
  - now apply N.leb_le.
  - apply fuel_room. discriminate.
  - fold s2. rewrite Ew. exact I3.
  - apply N.le_refl.
  - rewrite E. cbn [app]. rewrite (connack_decodes (N.testbit fl 1)).
    destruct (connack_outcome_ok w6 _ _ (plain_connack_accepted (w_sess w6) (negb (N.testbit fl 1)) (w_now w6))) as [w' E'].
    rewrite E'. unfold fl. rewrite connect_flags_clean.
    change (cq_clean (connect_request s2)) with (negb (s_sp (w_sess w))). rewrite Bool.negb_involutive.
    eexists. reflexivity.
Qed.

(* the encoded CONNECT is never longer than the healthy transport takes in one call *)
Lemma connect_len_small : forall cap r off bs, enc_connect cap r = SOk off bs -> lenN bs <= BIG.
Proof.
  intros cap r off bs H. destruct (connect_layout _ _ _ _ H) as [rl [rest [Eb Hv]]].
  pose proof (varint_write_len_eq _ _ Hv) as Hl. unfold varint_write in Hv.
  destruct (N.ltb_spec VARINT_MAX (lenN (connect_head (connect_flags r) ++ rest))) as [|Hm]; [discriminate|].
  rewrite Eb, lenN_cons, lenN_app, Hl. unfold varint_len, BIG, VARINT_MAX in *.
  repeat match goal with |- context [if ?c then _ else _] => destruct c end; lia.
Qed.

(* C12, positive half, at the level of a run: from EVERY session state in which the CONNECT fits, whatever happened
   before (failed writes, half-received packets, expired timers, queued control packets, an unsent disconnect) *)
Theorem connect_action_succeeds : forall w,
  w_script w = [] -> w_broker w = 2 -> 5 <= rcap (s_reader (w_sess w)) ->
  let s2 := connect_scratch (w_sess w) in
  let free := ob_cap (s_ob s2) - ob_used (s_ob s2) in
  let cs := connect_chunks (connect_request s2) in
  chunks_ok cs = true -> chunks_len cs <= VARINT_MAX -> 5 + chunks_len cs <= free ->
  let w' := run_action (AConnect []) w in
  w_conn w' = true /\ w_live w' = true /\ w_event w' = (if s_sp (w_sess w) then 1 else 0).
Proof.
  intros w Hs Hb Hc s2 free cs Hok Hv Hroom w'.
  destruct (connect_encodes_iff_room (w_sess w) Hok Hv) as [Henc _].
  destruct (Henc Hroom) as [off [bs He]].
  set (w0 := upd_poison (upd_wire (upd_txbuf (upd_inq (upd_live w false false 0) [] (w_now w)) []) []) false).
  destruct (connect_succeeds w0 off bs) as [w2 E2]; try reflexivity; try assumption.
  { exact (connect_len_small _ _ _ _ He). }
  unfold w', run_action. cbn [fold_left]. fold w0. rewrite E2. cbn. repeat split.
Qed.

(* the hypotheses are met: by a fresh client, and by a client whose QoS 1 publish was cut off after four bytes and is
   retained for republication *)
Definition ex_cfg : config :=
  {| cf_rx := 64; cf_tx := 128; cf_client_id := [99]; cf_keepalive_s := 30; cf_expiry := 0;
     cf_downgrade := false; cf_will := None; cf_auth := None |}.
Definition ex_pub : pub_req :=
  {| pr_topic := [116]; pr_props := PSlice []; pr_qos := Q1; pr_payload := [1; 2; 3]; pr_retain := false |}.
Definition ex_fresh : world := run_case {| c_cfg := ex_cfg; c_prog := [ASetBroker 2]; c_script := [] |}.
Definition ex_broken : world :=
  run_case {| c_cfg := ex_cfg;
              c_prog := [ASetBroker 2; AConnect []; APublish ex_pub; ADrive; AHandleDisconnect; AHeal];
              c_script := [(0, 1000); (0, 1000); (0, 1000); (0, 1000); (0, 1000); (0, 4); (1, 0)] |}.

Definition connect_hyps (w : world) : bool :=
  let s2 := connect_scratch (w_sess w) in
  let cs := connect_chunks (connect_request s2) in
  match w_script w with [] => true | _ => false end && (w_broker w =? 2) && (5 <=? rcap (s_reader (w_sess w))) &&
  chunks_ok cs && (chunks_len cs <=? VARINT_MAX) && (5 + chunks_len cs <=? ob_cap (s_ob s2) - ob_used (s_ob s2)).

Lemma connect_hyps_sound : forall w, connect_hyps w = true ->
  let w' := run_action (AConnect []) w in
  w_conn w' = true /\ w_live w' = true /\ w_event w' = (if s_sp (w_sess w) then 1 else 0).
Proof.
  intros w H. unfold connect_hyps in H. repeat (apply Bool.andb_true_iff in H; destruct H as [H ?]).
  apply connect_action_succeeds; try (apply N.leb_le; assumption); try (apply N.eqb_eq; assumption); try assumption.
  destruct (w_script w); [reflexivity|discriminate].
Qed.

Example connect_hyps_fresh : connect_hyps ex_fresh = true.
Proof. vm_compute. reflexivity. Qed.
Example connect_hyps_broken :
  connect_hyps ex_broken = true /\ halted ex_broken = false /\ s_sp (w_sess ex_broken) = true /\
  length (ob_ret (s_ob (w_sess ex_broken))) = 1%nat /\ w_live ex_broken = false.
Proof. vm_compute. repeat split; reflexivity. Qed.