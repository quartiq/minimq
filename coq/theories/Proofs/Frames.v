(* Frames.v — C01, packet level: whatever an encoder returns is exactly one MQTT control packet (first byte,
   canonical Remaining Length, exactly that many bytes) whose first byte a client may send; a concatenation of
   such packets is split back into exactly those packets by the standard's framing rule; the outbound engine
   only ever continues the packet it has begun. *)
From Coq Require Import List NArith Lia.
From Minimq Require Import Bytes Varint Ser Spec Arena Core Util VarintProofs SerLemmas Shapes Status.
Import ListNotations.
Local Open Scope N_scope.

Definition frame (first : N) (bs : bytes) : Prop :=
  exists rl body, bs = first :: rl ++ body /\ varint_write (lenN body) = Some rl.

Lemma encode_chunks_payload_frame : forall cap typ flags cs payload off bs,
  encode_chunks_payload cap typ flags cs payload = SOk off bs -> frame (typ * 16 + flags mod 16) bs.
Proof.
  intros cap typ flags cs payload off bs H.
  destruct (encode_payload_shape _ _ _ _ _ _ _ H) as [idx [body [rl [_ [Hv [-> _]]]]]]. now exists rl, (body ++ payload).
Qed.

Lemma encode_chunks_frame : forall cap typ flags cs off bs,
  encode_chunks cap typ flags cs = SOk off bs -> frame (typ * 16 + flags mod 16) bs.
Proof. intros cap typ flags cs off bs. rewrite encode_chunks_as_payload. apply encode_chunks_payload_frame. Qed.

Lemma publish_first_byte_legal : forall r,
  (pq_qos r = Q0 -> pq_dup r = false) ->
  spec_client_first_byte (3 * 16 + publish_flags r mod 16) = true.
Proof.
  intros r Hd. unfold publish_flags.
  destruct (pq_qos r) eqn:Eq, (pq_retain r), (pq_dup r) eqn:Ed; try reflexivity; specialize (Hd eq_refl); discriminate.
Qed.

Theorem enc_connect_frame : forall cap r off bs, enc_connect cap r = SOk off bs ->
  frame 16 bs /\ spec_client_first_byte 16 = true.
Proof. intros cap r off bs H. split; [|reflexivity]. exact (encode_chunks_frame _ _ _ _ _ _ H). Qed.

Theorem enc_publish_frame : forall cap r off bs, enc_publish cap r = SOk off bs ->
  frame (48 + publish_flags r mod 16) bs /\
  ((pq_qos r = Q0 -> pq_dup r = false) -> spec_client_first_byte (48 + publish_flags r mod 16) = true).
Proof.
  intros cap r off bs H. split; [exact (encode_chunks_payload_frame _ _ _ _ _ _ _ H)|].
  intros Hd. exact (publish_first_byte_legal r Hd).
Qed.

Theorem enc_subscribe_frame : forall cap r off bs, enc_subscribe cap r = SOk off bs ->
  frame 130 bs /\ spec_client_first_byte 130 = true.
Proof. intros cap r off bs H. split; [|reflexivity]. exact (encode_chunks_frame _ _ _ _ _ _ H). Qed.

Theorem enc_unsubscribe_frame : forall cap r off bs, enc_unsubscribe cap r = SOk off bs ->
  frame 162 bs /\ spec_client_first_byte 162 = true.
Proof. intros cap r off bs H. split; [|reflexivity]. exact (encode_chunks_frame _ _ _ _ _ _ H). Qed.

Theorem enc_disconnect_frame : forall cap r off bs, enc_disconnect cap r = SOk off bs ->
  frame 224 bs /\ spec_client_first_byte 224 = true.
Proof. intros cap r off bs H. split; [|reflexivity]. exact (encode_chunks_frame _ _ _ _ _ _ H). Qed.

Theorem control_packet_frame : forall a off bs, encode_control_packet a = SOk off bs ->
  exists first, frame first bs /\ spec_client_first_byte first = true /\
    first = match a with CPubAck _ _ => 64 | CPubRec _ _ => 80 | CPubComp _ _ => 112 | CPing => 192 end.
Proof.
  intros a off bs H. destruct a as [pid rc|pid rc|pid rc|]; cbn [encode_control_packet] in H; unfold enc_ack, enc_pingreq in H;
    apply encode_chunks_frame in H; eexists; (split; [exact H|split; reflexivity]).
Qed.

Theorem pubrel_frame : forall pid rc off bs, encode_pubrel pid rc = SOk off bs ->
  frame 98 bs /\ spec_client_first_byte 98 = true.
Proof. intros pid rc off bs H. unfold encode_pubrel, enc_ack in H. apply encode_chunks_frame in H. split; [exact H|reflexivity]. Qed.

Lemma frame_len : forall first bs, frame first bs -> 2 <= lenN bs.
Proof.
  intros first bs [rl [body [-> Hv]]]. apply varint_write_len in Hv. rewrite lenN_cons, lenN_app. lia.
Qed.

Theorem take_frame_app : forall first bs rest, frame first bs -> take_frame (bs ++ rest) = Some (bs, rest).
Proof.
  intros first bs rest [rl [body [-> Hv]]]. cbn [app take_frame].
  rewrite <- app_assoc. rewrite (varint_roundtrip _ _ (body ++ rest) Hv).
  rewrite !lenN_app. destruct (N.ltb_spec (lenN body + lenN rest) (lenN body)) as [Hl|Hl]; [lia|].
  replace (1 + (lenN rl + (lenN body + lenN rest) - (lenN body + lenN rest)) + lenN body) with (lenN (first :: rl ++ body))
    by (rewrite lenN_cons, lenN_app; lia).
  rewrite app_assoc, (app_comm_cons (rl ++ body) rest first). now rewrite takeN_app_exact, dropN_app_exact.
Qed.

Theorem split_frames_concat : forall fs, Forall (fun f => exists first, frame first f) fs ->
  forall fuel, (length fs < fuel)%nat -> split_frames fuel (concat fs) = Some fs.
Proof.
  induction fs as [|f t IH]; intros HF fuel Hfuel.
  - destruct fuel; [lia|]. reflexivity.
  - destruct fuel as [|fuel]; [cbn [length] in Hfuel; lia|]. inversion HF as [|? ? [first Hf] Ht]; subst.
    cbn [concat split_frames]. pose proof (frame_len _ _ Hf) as Hl.
    destruct (f ++ concat t) as [|x xs] eqn:E.
    { apply (f_equal lenN) in E. rewrite lenN_app, lenN_nil in E. lia. }
    rewrite <- E. rewrite (take_frame_app first f (concat t) Hf).
    rewrite (IH Ht fuel) by (cbn [length] in Hfuel; lia). reflexivity.
Qed.

(* control packets and PUBRELs are encoded again at every step; retained packets lie in the arena *)
Lemma prepare_write_inv : forall s st p bs written len,
  prepare_step s st = PWrite p bs written len ->
  step_state st = SWrite written /\ too_large (rt_mps (s_rt s)) len = false /\
  match st with
  | StCtl a _ => p = FCtl a /\ len = lenN bs /\ exists off, encode_control_packet a = SOk off bs
  | StRel pid rc _ => p = FRel pid /\ len = lenN bs /\ exists off, encode_pubrel pid rc = SOk off bs
  | StRet pid off l _ => p = FRet pid /\ len = l /\ bs = retained_packet (s_ob s) off l
  end.
Proof.
  intros s st p bs written len H. pose proof (prepare_step_inv s st) as P. rewrite H in P.
  destruct st; cbn [step_state]; tauto.
Qed.

Theorem engine_ctl_bytes : forall s a w p bs written len,
  prepare_step s (StCtl a (SWrite w)) = PWrite p bs written len ->
  p = FCtl a /\ written = w /\ len = lenN bs /\ exists first, frame first bs /\ spec_client_first_byte first = true.
Proof.
  intros s a w p bs written len H. destruct (prepare_write_inv _ _ _ _ _ _ H) as [[= <-] [_ [-> [-> [off E]]]]].
  destruct (control_packet_frame a off bs E) as [first [F [L _]]]. repeat split. now exists first.
Qed.

Theorem engine_rel_bytes : forall s pid rc w p bs written len,
  prepare_step s (StRel pid rc (SWrite w)) = PWrite p bs written len ->
  p = FRel pid /\ written = w /\ len = lenN bs /\ frame 98 bs.
Proof.
  intros s pid rc w p bs written len H. destruct (prepare_write_inv _ _ _ _ _ _ H) as [[= <-] [_ [-> [-> [off E]]]]].
  repeat split. exact (proj1 (pubrel_frame pid rc off bs E)).
Qed.

Theorem engine_resumes_at_offset : forall s st p bs written len,
  prepare_step s st = PWrite p bs written len ->
  step_state st = SWrite written /\
  match st with StCtl a _ => p = FCtl a | StRel pid _ _ => p = FRel pid | StRet pid off l _ => p = FRet pid /\ len = l end.
Proof.
  intros s st p bs written len H. destruct (prepare_write_inv _ _ _ _ _ _ H) as [Hs [_ Hm]].
  split; [exact Hs|]. destruct st; tauto.
Qed.

Theorem fresh_only_when_nothing_in_progress : forall o st,
  next_step o = Some st -> is_in_progress (step_state st) = false ->
  (forall e, In e (ob_ctl o) -> is_in_progress (ce_st e) = false) /\
  (forall e, In e (ob_rel o) -> is_in_progress (le_st e) = false) /\
  (forall e, In e (ob_ret o) -> is_in_progress (re_st e) = false).
Proof.
  intros o st H Hn. unfold next_step, orelse in H.
  destruct (next_step_pass o true) as [st1|] eqn:E1.
  - inversion H; subst. apply pass_state in E1. cbn [matches_priority] in E1. congruence.
  - unfold next_step_pass, orelse, find_ctl, find_rel, find_ret in E1. cbn [matches_priority] in E1.
    destruct (find (fun e => is_in_progress (ce_st e)) (ob_ctl o)) eqn:F1; [discriminate|].
    destruct (find (fun e => is_in_progress (le_st e)) (ob_rel o)) eqn:F2; [discriminate|].
    destruct (find (fun e => is_in_progress (re_st e)) (ob_ret o)) eqn:F3; [discriminate|].
    refine (conj _ (conj _ _)); intros e He.
    + exact (find_none _ _ F1 e He).
    + exact (find_none _ _ F2 e He).
    + exact (find_none _ _ F3 e He).
Qed.
