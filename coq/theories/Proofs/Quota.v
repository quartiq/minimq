(* Quota.v — the Receive Maximum accounting invariant (C06):
     send_quota + #unresolved QoS>0 publishes <= max_send_quota
   closed under every session step whose environment flag is ok; with the ceiling at most 8 (`P8`) no PUBREC finds the
   release list full, and a publish beyond the window is refused without touching the quota. *)
From Coq Require Import Lia.
From Minimq Require Import Util Effects Bytes Props Ser De Arena Core.
From Minimq Require Import ArenaLemmas ArenaOps Inv Lts.

Definition is_pub_bytes (b : bytes) : bool := match b with x :: _ => N.eqb (x / 16) 3 | [] => false end.
Definition a_bytes (a : aentry) : bytes := snd (fst a).
Definition pubs (o : outbound) : N := glen (filter (fun a => is_pub_bytes (a_bytes a)) (abs o)).

Lemma is_publish_entry_bytes : forall buf e, 1 <= re_len e ->
  is_publish_entry buf e = is_pub_bytes (entry_bytes buf e).
Proof.
  intros buf e H. unfold is_publish_entry, entry_bytes, sliceN, is_pub_bytes.
  destruct (dropN (re_off e) buf) as [|b t]; cbn [takeN]; [reflexivity|].
  destruct (N.eqb_spec (re_len e) 0); [lia|reflexivity].
Qed.

Lemma wf_layout_len : forall es lo used e, wf_layout lo es used -> In e es -> 2 <= re_len e.
Proof.
  induction es as [|x t IH]; intros lo used e W Hin; [destruct Hin|].
  cbn [wf_layout] in W. destruct W as [W1 [W2 W3]]. destruct Hin as [->|Hin]; [exact W2|]. eapply IH; eassumption.
Qed.

Lemma unres_abs : forall o, arena_wf o -> unresolved_publishes o = pubs o + glen (ob_rel o).
Proof.
  intros o [W U]. unfold unresolved_publishes, pubs, abs. f_equal.
  assert (G : forall es, (forall e, In e es -> 2 <= re_len e) ->
              glen (filter (is_publish_entry (ob_buf o)) es) =
              glen (filter (fun a => is_pub_bytes (a_bytes a)) (map (abs_entry (ob_buf o)) es))).
  { induction es as [|e t IH]; intros Hl; cbn [filter map glen]; [reflexivity|].
    unfold a_bytes at 1. cbn [abs_entry fst snd].
    rewrite <- is_publish_entry_bytes by (specialize (Hl e (or_introl eq_refl)); lia).
    destruct (is_publish_entry (ob_buf o) e); cbn [glen]; rewrite IH; try reflexivity;
      intros x Hx; apply Hl; now right. }
  apply G. intros e He. eapply wf_layout_len; eassumption.
Qed.

Definition Q (s : session) : Prop :=
  rt_quota (s_rt s) <= rt_maxquota (s_rt s) /\
  unresolved_publishes (s_ob s) + rt_quota (s_rt s) <= rt_maxquota (s_rt s).

Lemma set_bit3_type : forall x, set_bit3 x / 16 = x / 16.
Proof.
  intros x. destruct (bit3_split x) as [q [r [Hr Hx]]]. unfold set_bit3. destruct (N.testbit x 3); [reflexivity|].
  transitivity q; [symmetry; apply (N.div_unique _ 16 q (8 + r)) | apply (N.div_unique _ 16 q r)]; lia.
Qed.

Lemma pubs_dup : forall o o', abs o' = map dup_aentry (abs o) -> pubs o' = pubs o.
Proof.
  intros o o' H. unfold pubs. rewrite H. generalize (abs o). induction l as [|a t IH]; cbn [map filter]; [reflexivity|].
  assert (E : is_pub_bytes (a_bytes (dup_aentry a)) = is_pub_bytes (a_bytes a)).
  { destruct a as [[p b] st]. unfold dup_aentry, a_bytes. cbn [fst snd]. destruct b as [|x b']; cbn [dup_bytes is_pub_bytes]; [reflexivity|].
    now rewrite set_bit3_type. }
  rewrite E. destruct (is_pub_bytes (a_bytes a)); cbn [glen]; now rewrite IH.
Qed.


Lemma U_same : forall o o', arena_wf o -> arena_wf o' -> pubs o' = pubs o -> glen (ob_rel o') = glen (ob_rel o) ->
  unresolved_publishes o' = unresolved_publishes o.
Proof. intros o o' W W' Hp Hr. rewrite !unres_abs by assumption. now rewrite Hp, Hr. Qed.

Lemma U_compact : forall o, OInv o -> unresolved_publishes (compact o) = unresolved_publishes o.
Proof.
  intros o H. destruct (compact_spec o (oi_arena _ H)) as [C1 [C2 [_ [_ [_ [C6 _]]]]]].
  apply U_same; [apply H | exact C1 | unfold pubs; now rewrite C2 | now rewrite C6].
Qed.

Lemma U_mark_dup : forall o, OInv o -> unresolved_publishes (mark_retained_dup o) = unresolved_publishes o.
Proof.
  intros o H. destruct (mark_retained_dup_spec o (oi_arena _ H)) as [M1 [M2 [_ [_ [M5 _]]]]].
  apply U_same; [apply H | exact M1 | now apply pubs_dup | now rewrite M5].
Qed.

Lemma U_encode_at : forall o enc, OInv o -> fits enc -> unresolved_publishes (fst (encode_at o enc)) = unresolved_publishes o.
Proof.
  intros o enc H Henc. destruct (encode_at_spec _ _ _ _ (oi_arena _ H) Henc (surjective_pairing _)) as [A1 [Ab [_ [_ [Hl _]]]]].
  apply U_same; [apply H | exact A1 | unfold pubs; now rewrite Ab | now rewrite Hl].
Qed.

(* whether an entry holds a PUBLISH is read at its offset *)
Lemma U_states_only : forall o o', states_only o o' -> unresolved_publishes o' = unresolved_publishes o.
Proof.
  intros o o' [Hb [_ [_ [Ho [_ [_ [Hr _]]]]]]]. unfold unresolved_publishes. rewrite Hb, Hr. f_equal. clear Hr.
  revert Ho. generalize (ob_ret o') as l'. induction (ob_ret o) as [|e l IH]; intros [|e' l'] Ho; try discriminate; [reflexivity|].
  cbn [map filter] in *. injection Ho as Ho Ht.
  replace (is_publish_entry (ob_buf o) e') with (is_publish_entry (ob_buf o) e) by (unfold is_publish_entry; now rewrite Ho).
  destruct (is_publish_entry (ob_buf o) e); cbn [glen]; now rewrite (IH _ Ht).
Qed.

Lemma U_arm_replay : forall o, OInv o -> unresolved_publishes (arm_replay o) = unresolved_publishes o.
Proof.
  intros o H. destruct (arm_replay_cases o) as [->|Hs]; [reflexivity|]. rewrite (U_states_only _ _ Hs). now apply U_mark_dup.
Qed.

Definition pub_of (o : outbound) (pid : N) : bool :=
  match find (fun e => N.eqb (re_pid e) pid) (ob_ret o) with
  | Some e => is_publish_entry (ob_buf o) e
  | None => false
  end.

Lemma abs_remove_pubs : forall pid l l', abs_remove pid l = Some l' ->
  exists a, find (fun a : aentry => N.eqb (fst (fst a)) pid) l = Some a /\
    glen (filter (fun a => is_pub_bytes (a_bytes a)) l) =
    glen (filter (fun a => is_pub_bytes (a_bytes a)) l') + (if is_pub_bytes (a_bytes a) then 1 else 0).
Proof.
  induction l as [|[[p b] st] t IH]; intros l' H; cbn [abs_remove] in H; [discriminate|].
  cbn [find fst]. destruct (N.eqb p pid) eqn:E.
  - inversion H; subst. exists (p, b, st). split; [reflexivity|]. cbn [filter].
    change (a_bytes (p, b, st)) with b. destruct (is_pub_bytes b); cbn [glen]; lia.
  - destruct (abs_remove pid t) as [t'|] eqn:Et; [|discriminate]. injection H as <-.
    destruct (IH t' eq_refl) as [a [Ha Hg]]. exists a. split; [exact Ha|]. cbn [filter].
    change (a_bytes (p, b, st)) with b. destruct (is_pub_bytes b); cbn [glen]; lia.
Qed.

Lemma find_abs : forall buf pid es,
  find (fun a : aentry => N.eqb (fst (fst a)) pid) (map (abs_entry buf) es) =
  option_map (abs_entry buf) (find (fun e => N.eqb (re_pid e) pid) es).
Proof.
  induction es as [|e t IH]; cbn [map find option_map]; [reflexivity|].
  cbn [abs_entry fst]. destruct (N.eqb (re_pid e) pid); [reflexivity|exact IH].
Qed.

Lemma U_ack_packet : forall o pid o', OInv o -> ack_packet o pid = (o', true) ->
  unresolved_publishes o = unresolved_publishes o' + (if pub_of o pid then 1 else 0).
Proof.
  intros o pid o' H E. pose proof (OInv_ack_packet o pid H) as H'. rewrite E in H'. cbn [fst] in H'.
  destruct (ack_packet_spec o pid o' true (oi_arena _ H) E) as [_ [_ [Hr [_ Ha]]]].
  rewrite !unres_abs by (apply oi_arena; assumption). rewrite Hr.
  destruct (abs_remove_pubs _ _ _ Ha) as [a [Hf Hg]]. unfold pubs. rewrite Hg.
  unfold abs in Hf. rewrite find_abs in Hf. unfold pub_of.
  destruct (find (fun e => N.eqb (re_pid e) pid) (ob_ret o)) as [e|] eqn:Ef; [|discriminate].
  cbn [option_map] in Hf. inversion Hf; subst. unfold a_bytes. cbn [abs_entry fst snd].
  rewrite is_publish_entry_bytes; [lia|].
  assert (In e (ob_ret o)) by (apply find_some in Ef; tauto).
  destruct (oi_arena _ H) as [W _]. pose proof (wf_layout_len _ _ _ _ W H0). lia.
Qed.

Lemma U_retain : forall o enc o1 off len pid o2,
  OInv o ->
  fits enc ->
  encode_at o enc = (o1, EOk off len) -> retain_packet o1 pid off len = Some o2 ->
  ~ In pid (ids o) -> id_ok pid ->
  exists bs cap off', enc cap = SOk off' bs /\ unresolved_publishes o2 = unresolved_publishes o + (if is_pub_bytes bs then 1 else 0).
Proof.
  intros o enc o1 off len pid o2 H Henc He Hr Hn Hok.
  pose proof (OInv_retain o enc o1 off len pid o2 H Henc He Hr Hn Hok) as H2.
  destruct (encode_retain_spec o enc o1 off len pid o2 (oi_arena _ H) Henc He Hr) as [bs [_ [Ab [_ [[cap [off' Hb]] [_ [Hl _]]]]]]].
  exists bs, cap, off'. split; [exact Hb|].
  rewrite !unres_abs by (apply oi_arena; assumption). rewrite Hl. unfold pubs. rewrite Ab, filter_app, glen_app.
  cbn [filter]. change (a_bytes (pid, bs, SWrite 0)) with bs. destruct (is_pub_bytes bs); cbn [glen]; lia.
Qed.

Lemma Q_frame : forall s s', unresolved_publishes (s_ob s') = unresolved_publishes (s_ob s) -> rt_quota (s_rt s') = rt_quota (s_rt s) ->
  rt_maxquota (s_rt s') = rt_maxquota (s_rt s) -> Q s -> Q s'.
Proof. intros s s' H1 H2 H3 [A B]. unfold Q in *. rewrite H1, H2, H3. split; assumption. Qed.

Lemma U_queue_control : forall o a o', queue_control o a = Some o' -> unresolved_publishes o' = unresolved_publishes o.
Proof. intros o a o' H. unfold queue_control in H. destruct (_ <=? _); [discriminate|]. injection H as <-. reflexivity. Qed.

Lemma quota_inc_spec : forall r,
  rt_quota (quota_inc r) <= rt_maxquota (quota_inc r) /\ rt_maxquota (quota_inc r) = rt_maxquota r /\
  rt_quota (quota_inc r) <= rt_quota r + 1.
Proof. intros r. unfold quota_inc, rt_with_quota. cbn [rt_quota rt_maxquota]. lia. Qed.

Lemma find_ext_pid : forall pid (es : list rentry), find (fun e => N.eqb (re_pid e) pid) es = find (fun e => N.eqb (re_pid e) pid) es.
Proof. reflexivity. Qed.

Lemma ack_found_find : forall o pid o', ack_packet o pid = (o', true) ->
  exists e, find (fun e => N.eqb (re_pid e) pid) (ob_ret o) = Some e.
Proof.
  intros o pid o' H. unfold ack_packet in H. destruct (remove_first_ret pid (ob_ret o)) eqn:E; [|discriminate]. clear H.
  revert l E. induction (ob_ret o) as [|x t IH]; intros l E; cbn [remove_first_ret find] in *; [discriminate|].
  destruct (N.eqb (re_pid x) pid); [eauto|]. destruct (remove_first_ret pid t); [|discriminate]. eapply IH; reflexivity.
Qed.

(* the environment assumption at work: a PUBACK / PUBREC that finds an entry finds a PUBLISH *)
Lemma pub_ack_pub_of : forall s p pid o, pub_ack p pid -> ack_type_ok s p = true ->
  ack_packet (s_ob s) pid = (o, true) -> pub_of (s_ob s) pid = true.
Proof.
  intros s p pid o Hp Hok E. destruct (ack_found_find _ _ _ E) as [e He]. unfold pub_of. rewrite He.
  destruct p; cbn [pub_ack] in Hp; try contradiction; subst; cbn [ack_type_ok] in Hok; rewrite He in Hok; exact Hok.
Qed.

Lemma U_queue_release : forall o pid rc o2, queue_release o pid rc = Some o2 ->
  unresolved_publishes o2 = unresolved_publishes o + 1.
Proof.
  intros o pid rc o2 H. destruct (queue_release_inv _ _ _ _ H) as [-> _].
  unfold unresolved_publishes. cbn [with_rel ob_buf ob_ret ob_rel]. rewrite glen_app. cbn [glen]. lia.
Qed.

Lemma U_ack_release : forall o pid o', ack_release o pid = (o', true) ->
  unresolved_publishes o = unresolved_publishes o' + 1.
Proof.
  intros o pid o' H. destruct (ack_release_inv _ _ _ H) as [es [Er ->]].
  destruct (remove_first_rel_ids _ _ _ Er) as [a [b [I1 I2]]].
  unfold unresolved_publishes. cbn [with_rel ob_buf ob_ret ob_rel].
  rewrite <- (glen_map le_pid es), I2, <- (glen_map le_pid (ob_rel o)), I1, !glen_app. cbn [glen]. lia.
Qed.

Lemma Q_hp : forall s p s', hp_eff s p s' -> Inv s -> Q s -> ack_type_ok s p = true -> Q s'.
Proof.
  intros s p s' H I [Hq Hu] Hok. pose proof (inv_ob _ I) as HO. destruct (quota_inc_spec (s_rt s)) as [Q1 [Q2 Q3]].
  unfold Q. destruct H; cbn [set_srv set_ob set_rt s_ob s_rt rt_with_timers rt_quota rt_maxquota]; rewrite ?Q2.
  - tauto.
  - rewrite (U_queue_control _ _ _ H). tauto.
  - tauto.
  - pose proof (U_ack_packet _ _ _ HO H0) as HU. destruct (pub_of _ _); lia.
  - pose proof (U_ack_packet _ _ _ HO H0) as HU. rewrite (pub_ack_pub_of _ _ _ _ H Hok H0) in HU. lia.
  - pose proof (U_ack_packet _ _ _ HO H0) as HU. rewrite (pub_ack_pub_of _ _ _ _ H Hok H0) in HU.
    pose proof (U_queue_release _ _ _ _ H1). lia.
  - pose proof (U_ack_release _ _ _ H). lia.
  - tauto.
Qed.

Lemma head_type : forall typ flags t, typ < 16 -> is_pub_bytes ((typ * 16 + flags mod 16) :: t) = N.eqb typ 3.
Proof.
  intros typ flags t H. unfold is_pub_bytes.
  assert ((typ * 16 + flags mod 16) / 16 = typ).
  { rewrite N.add_comm, N.div_add by lia. rewrite N.div_small by (apply N.mod_upper_bound; lia). lia. }
  now rewrite H0.
Qed.

Lemma req_enc_pub : forall dec e cap off bs, req_enc dec e -> e cap = SOk off bs -> is_pub_bytes bs = dec.
Proof.
  intros dec e cap off bs [r|r|r] H; [apply enc_publish_typed in H | apply enc_subscribe_typed in H | apply enc_unsubscribe_typed in H];
    destruct H as [flags [t ->]]; now apply head_type.
Qed.

(* a retained PUBLISH costs a unit of quota, which must have been there *)
Lemma Q_mid : forall D dec live s s' m, mid_out (fun _ => req_enc dec) D dec live s s' m -> Inv s -> Q s -> Q s'.
Proof.
  intros D dec live s s' m H I Hq. pose proof (inv_ob _ I) as HO.
  destruct H as [e _|e _ _|bs _ _ _ _|p id e Hn _|p id enc e Hn He _|p id enc o1 off len o2 k Hn He Ha _ Hr Hd].
  1: exact Hq.
  1, 2: eapply Q_frame; [| | |exact Hq]; cbn [set_ob s_ob s_rt]; [now apply U_compact|reflexivity|reflexivity].
  - exact Hq.
  - eapply Q_frame; [| | |exact Hq]; cbn [set_ob set_pid s_ob s_rt]; [apply U_encode_at; [exact HO | exact (req_enc_fits _ _ He)]|reflexivity|reflexivity].
  - destruct (next_packet_id_fresh _ _ _ HO (inv_pid _ I) Hn) as [Hok [Hi _]].
    destruct (U_retain _ _ _ _ _ _ _ HO (req_enc_fits _ _ He) Ha Hr Hi Hok) as [bs [cap [off' [Hb HU]]]].
    rewrite (req_enc_pub _ _ _ _ _ He Hb) in HU.
    destruct Hq as [A B]. unfold Q. destruct dec; cbn [set_rt set_ob set_pid s_ob s_rt rt_with_quota rt_quota rt_maxquota]; [destruct (Hd eq_refl) as [_ [Hd' _]]|]; lia.
Qed.

Lemma connack_props_bounds : forall its lq a a', connack_props its lq a = Some a' ->
  ca_quota a = ca_maxquota a -> ca_maxquota a <= lq -> ca_quota a' = ca_maxquota a' /\ ca_maxquota a' <= lq.
Proof.
  induction its as [|it t IH]; intros lq a a' H Ha Hb; cbn [connack_props] in H; [inversion H; subst; now split|].
  destruct it as [p|]; [|discriminate].
  destruct (pk p); try (eapply IH; [exact H | exact Ha | exact Hb]);
    repeat match type of H with (if ?c then _ else _) = _ => destruct c; [try discriminate|] | (match ?c with _ => _ end) = _ => destruct c; try discriminate end;
    eapply IH; try exact H; cbn [ca_quota ca_maxquota]; try exact Ha; try exact Hb; try reflexivity; lia.
Qed.

Lemma connack_acc0_bounds : forall s its a, connack_props its (N.min MAX_RETAINED MAX_PENDING_RELEASE) (connack_acc0 s) = Some a ->
  ca_quota a = ca_maxquota a /\ ca_maxquota a <= N.min MAX_RETAINED MAX_PENDING_RELEASE.
Proof. intros s its a H. apply connack_props_bounds in H; [exact H | reflexivity | reflexivity]. Qed.

Lemma U_ob : forall s o, ob_eff s o -> OInv (s_ob s) -> unresolved_publishes o = unresolved_publishes (s_ob s).
Proof.
  intros s o H HO. destruct H.
  - reflexivity.
  - now apply U_arm_replay.
  - now apply U_compact.
  - eapply U_queue_control; eassumption.
  - apply U_states_only, set_written_states.
  - apply U_states_only, complete_flush_states.
Qed.

Theorem Q_step : forall s l s', sstep s l s' -> Inv s -> Q s -> label_ok l = true -> Q s'.
Proof.
  intros s l s' H I Hq Hl. destruct (sstep_seff _ _ _ H) as [o r rd Ho Hr Hm|p|D dec live s' m M|sp a its now Ea|p _].
  - apply (Q_frame s); [|exact Hr|exact Hm|exact Hq]. apply (U_ob _ _ Ho), I.
  - eapply Q_hp; [eapply handle_packet_eff, surjective_pairing | exact I | exact Hq | exact Hl].
  - eapply Q_mid; eassumption.
  - destruct (connack_acc0_bounds _ _ _ Ea) as [Hqa _].
    unfold Q. cbn [connack_ok s_rt s_ob rt_quota rt_maxquota rt_with_timers note_outbound_activity].
    destruct sp; cbn [label_ok] in Hl; [split; lia|].
    cbn [data_reset s_ob]. change (unresolved_publishes (ob_clear (s_ob s))) with 0. split; lia.
  - exact Hq.
Qed.

Definition P8 (s : session) : Prop := rt_maxquota (s_rt s) <= 8.

Lemma quota_inc_max : forall r, rt_maxquota (quota_inc r) = rt_maxquota r.
Proof. reflexivity. Qed.

Lemma connack_establishes_P8 : forall s p now resumed,
  snd (connack_process s p now) = CAOk resumed -> P8 (fst (connack_process s p now)).
Proof.
  intros s p now resumed H. destruct (connack_process s p now) as [s' cr] eqn:E. cbn [fst snd] in *.
  destruct (connack_cases _ _ _ _ _ E) as [[_ [e [d ->]]]|[sp [rc [props [a [_ [_ [Ea [-> _]]]]]]]]]; [discriminate|].
  apply (connack_acc0_bounds _ _ _ Ea).
Qed.

Lemma P8_step : forall s l s', sstep s l s' -> P8 s -> P8 s'.
Proof.
  intros s l s' H Hp. unfold P8 in *. destruct (sstep_frame _ _ _ H) as [[_ [_ [_ E]]]|[sp [a [its [now [Ea [_ ->]]]]]]]; [now rewrite E|].
  apply (connack_acc0_bounds _ _ _ Ea).
Qed.

Lemma pubrec_never_exhausted : forall s pid rc,
  Inv s -> Q s -> P8 s -> ack_type_ok s (RPubRec pid rc) = true ->
  snd (handle_packet s (RPubRec pid rc)) <> HErr EInflightExhausted.
Proof.
  intros s pid rc I [Hq Hu] Hp Hok. cbn [handle_packet].
  destruct (ack_packet (s_ob s) pid) as [o found] eqn:E. destruct found.
  - pose proof (U_ack_packet _ _ _ (inv_ob _ I) E) as HU.
    rewrite (pub_ack_pub_of s (RPubRec pid rc) pid o eq_refl Hok E) in HU.
    destruct (negb (rc_success rc)); cbn [snd]; [discriminate|].
    destruct (check_pubrel_size _ _ _) as [e0|] eqn:Ec; cbn [snd].
    + unfold check_pubrel_size in Ec. destruct (encode_pubrel pid 0) as [n b|se].
      * destruct (too_large _ _); inversion Ec; subst; discriminate.
      * inversion Ec; subst. destruct se; discriminate.
    + cbn [set_ob s_ob]. unfold queue_release.
      assert (glen (ob_rel o) < 8).
      { unfold P8 in Hp. unfold unresolved_publishes in HU at 2. lia. }
      unfold MAX_PENDING_RELEASE. destruct (N.leb_spec 8 (glen (ob_rel o))); [lia|]. cbn [snd]. discriminate.
  - destruct (has_pending_release _ _); [destruct (rc_success rc)|]; cbn [snd]; discriminate.
Qed.

Lemma publish_refused_no_quota : forall s r,
  props_valid_for (pr_props r) CtxPublish = true -> effective_qos s (pr_qos r) <> Q0 ->
  retained_full (s_ob s) = false -> rt_quota (s_rt s) = 0 ->
  exists p, publish_middle s true r = (set_pid s p, MErr ENotReady).
Proof.
  intros s r Hv Hq Hf H0. unfold publish_middle. rewrite Hv. cbn [negb].
  destruct (effective_qos s (pr_qos r)) eqn:Eq; [contradiction| |];
    unfold next_packet_id; destruct (next_packet_id_go 17 (s_ob s) (s_pid s)) as [nxt id];
    cbn [set_pid s_ob s_rt]; rewrite Hf; cbn [sess_can_publish s_rt set_pid]; rewrite H0; cbn [andb negb N.eqb];
    change (0 =? 0) with true; cbn [negb andb]; eexists; reflexivity.
Qed.
