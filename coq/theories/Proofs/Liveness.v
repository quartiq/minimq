(* Liveness.v — C16, one poll() on an arrived packet.  On a behaving transport, with nothing left to write and no timer firing,
   ONE poll() takes a packet that has arrived: it is read (whatever its fragmentation would be), decoded and handed to
   the session (poll_takes_packet, poll_arrived).  For a PUBACK that completes its QoS 1 publish: the retained PUBLISH
   is released, the send quota returned, poll() reports progress, and the outbound side is still drained. *)
From Coq Require Import List NArith Lia.
From Minimq Require Import Bytes Varint Ser De Reader Arena Core Machine Run.
From Minimq Require Import Util CodecProofs ArenaOps WireInv ConnectOk BrokerProofs Framing PollReads KeepAlive Wire Effects PingQuiet.
Import ListNotations.
Open Scope N_scope.

Local Opaque u16_be.

(* the four-byte acknowledgements: PUBACK, PUBREC, PUBREL, PUBCOMP with reason code 0 left out *)
Lemma from_buffer_ack4 : forall h mk pid, (forall l, de_body h l = de_ack mk l) -> pid < 65536 ->
  from_buffer (h :: [2] ++ u16_be pid) = Some (mk pid 0).
Proof.
  intros h mk pid Hde Hp. apply (from_buffer_frame_whole h [2] (u16_be pid)); [rewrite lenN_u16; reflexivity|].
  rewrite Hde. exact (de_ack_short mk pid Hp).
Qed.

Lemma lenN_ack4 : forall h pid, lenN (h :: [2] ++ u16_be pid) = 4.
Proof. intros. cbn [app]. rewrite !lenN_cons, lenN_u16. reflexivity. Qed.

Lemma find_ret_none_abs : forall p o, find_ret p (ob_ret o) = None <->
  (forall a, In a (abs o) -> matches_priority (snd a) p = false).
Proof.
  intros p o. unfold find_ret, abs. induction (ob_ret o) as [|e t IH]; cbn [find map In].
  - split; [intros _ a []|reflexivity].
  - destruct (matches_priority (re_st e) p) eqn:Em.
    + split; [discriminate|]. intros H. specialize (H (abs_entry (ob_buf o) e) (or_introl eq_refl)). cbn in H. congruence.
    + split.
      * intros H a [Ha|Ha]; [subst a; exact Em|]. now apply (proj1 IH).
      * intros H. apply (proj2 IH). intros a Ha. apply H. now right.
Qed.

Lemma next_step_ack_none : forall o pid, arena_wf o -> next_step o = None -> next_step (fst (ack_packet o pid)) = None.
Proof.
  intros o pid W Hn. destruct (ack_packet o pid) as [o' found] eqn:E.
  destruct (ack_packet_spec o pid o' found W E) as [_ [Hc [Hr [_ Ha]]]]. cbn [fst].
  destruct found; [|destruct Ha as [-> _]; exact Hn].
  unfold next_step, next_step_pass, orelse in *. rewrite Hc, Hr.
  assert (Hp : forall p, find_ret p (ob_ret o) = None -> find_ret p (ob_ret o') = None).
  { intros p H3. apply find_ret_none_abs. intros a Hin. apply (proj1 (find_ret_none_abs p o) H3). eapply abs_remove_sub; eassumption. }
  destruct (find_ctl true (ob_ctl o)); [discriminate|]. destruct (find_rel true (ob_rel o)); [discriminate|].
  destruct (find_ret true (ob_ret o)) eqn:T; [discriminate|].
  destruct (find_ctl false (ob_ctl o)); [discriminate|]. destruct (find_rel false (ob_rel o)); [discriminate|].
  destruct (find_ret false (ob_ret o)) eqn:F; [discriminate|].
  rewrite (Hp true T), (Hp false F). reflexivity.
Qed.

Lemma wait_unfold : forall f w, wait_for_progress (S f) w =
  (let '(w1, r) := drive_packet (S f) w in
   match r with
   | ODone PrIdle =>
       let deadline := next_deadline (s_rt (w_sess w1)) in
       if negb (w_live w1) then (w1, OFail EDisconnected) else
       let '(w2, fr) := fill_packet_reader (S f) deadline w1 in
       match fr with
       | FillOk => wait_for_progress f w2
       | FillTimeout => wait_for_progress f w2
       | FillErr e => (w_hd w2, OFail e)
       | FillCancel => (w2, OCancel)
       | FillFuel => (w2, OFuel)
       end
   | _ => (w1, r)
   end).
Proof. reflexivity. Qed.

Lemma drive_loop_unfold : forall f adv w, drive_loop (S f) adv w =
  (let '(w1, r1) := process_received w in
   match r1 with
   | OFail e => (w1, OFail e)
   | OCancel => (w1, OCancel) | OFuel => (w1, OFuel) | OPanic => (w1, OPanic)
   | ODone (Some p) => (w1, ODone (PrInbound p))
   | ODone None =>
       if packet_available (s_reader (w_sess w)) then drive_loop f true w1 else
       let '(w2, r2) := service (w_now w1) w1 in
       match r2 with
       | OFail e => (w2, OFail e)
       | OCancel => (w2, OCancel) | OFuel => (w2, OFuel) | OPanic => (w2, OPanic)
       | ODone adv0 =>
           let advanced' := adv || adv0 in
           match next_step (s_ob (w_sess w2)) with
           | None => (w2, ODone (if advanced' then PrAdvanced else PrIdle))
           | Some _ => drive_loop f advanced' w2
           end
       end
   end).
Proof. reflexivity. Qed.
Lemma ack_packet_found : forall o pid, arena_wf o -> has_retained o pid = true -> snd (ack_packet o pid) = true.
Proof.
  intros o pid W H. destruct (ack_packet o pid) as [o' found] eqn:E.
  destruct (ack_packet_spec _ _ _ _ W E) as [_ [_ [_ [_ Hab]]]]. destruct found; [reflexivity|]. destruct Hab as [_ Hn]. exfalso.
  apply has_retained_In in H. unfold abs in Hn. induction (ob_ret o) as [|x l IH]; [contradiction|].
  cbn [map abs_remove abs_entry] in *. destruct (N.eqb_spec (re_pid x) pid); [discriminate|].
  destruct H as [H|H]; [contradiction|]. destruct (abs_remove pid (map (abs_entry _) l)); [discriminate|]. now apply IH.
Qed.


(* the world after process_received has handed packet p to the session, which became s4 *)
Definition handled (w : world) (s4 : session) (p : rpacket) : world :=
  upd_drained (upd_envok (upd_sess w s4) (w_envok w && ack_type_ok (set_reader (w_sess w) (reader_reset (rd w))) p))
              (w_drained w && match next_step (s_ob (w_sess w)) with None => true | Some _ => false end).

Lemma drive_first_pass : forall f adv w pl p s4 d,
  packet_available (rd w) = true -> rplen (rd w) = Some pl -> from_buffer (takeN pl (rdata (rd w))) = Some p ->
  handle_packet (set_reader (w_sess w) (reader_reset (rd w))) p = (s4, HOk d) ->
  drive_loop (S f) adv w = if d then (handled w s4 p, ODone (PrInbound p)) else drive_loop f true (handled w s4 p).
Proof.
  intros f adv w pl p s4 d Ha Hp Hdec Hh. cbn [drive_loop]. unfold process_received, take_packet. fold (rd w).
  rewrite Ha, Hp, Hdec, Hh. cbn [negb]. destruct d; reflexivity.
Qed.

(* a message for the application (d) ends the poll; otherwise the engine goes on from the world w4 that holds the new
   session, the transport and the broker's side being as before *)
Theorem poll_takes_packet : forall w h rl body t p s4 d,
  varint_write (lenN body) = Some rl ->
  let pkt := h :: rl ++ body in
  lenN pkt <= rcap (rd w) -> lenN pkt <= 29000 ->
  w_live w = true -> rdata (rd w) = [] -> rplen (rd w) = None ->
  next_step (s_ob (w_sess w)) = None ->
  ping_timed_out (w_sess w) (w_now w) = false -> should_queue_pingreq (w_sess w) (w_now w) = false ->
  w_script w = [] -> w_inq w = [(t, pkt)] -> t <= w_now w ->
  from_buffer pkt = Some p ->
  handle_packet (set_reader (w_sess w) (reader_reset (rd w))) p = (s4, HOk d) ->
  exists f w4,
    w_sess w4 = s4 /\ w_live w4 = true /\ w_inq w4 = [] /\ w_now w4 = w_now w /\ w_script w4 = [] /\ w_wire w4 = w_wire w /\
    (w_broker w4, w_txbuf w4, w_last_arrival w4) = (w_broker w, w_txbuf w, w_last_arrival w) /\
    (d = true -> op_poll FUEL w = (w4, ODone (Some p))) /\
    (d = false -> forall w', drive_loop (S f) true w4 = (w', ODone PrAdvanced) -> op_poll FUEL w = (w', ODone None)).
Proof.
  intros w h rl body t p s4 d Hrl pkt Hcap H29.
  pose proof (fuel_enough _ H29) as Hfu. destruct FUEL_big as [f Hf]. unfold op_poll. rewrite Hf in *. clear Hf.
  assert (Hfuel : (N.to_nat (lenN pkt) + 2 <= S (S (S (S f))))%nat) by lia.
  assert (HB : lenN pkt <= BIG) by (unfold BIG; lia).
  intros Hl Hd Hpl Hn Hto Hq Hs Hi Ht Hdec Hh.
  destruct (wait_reads_arrived (S (S (S (S f)))) w h rl body t Hrl Hcap Hfuel HB Hl Hd Hpl Hn Hto Hq Hs Hi Ht)
    as [w3 [E3 [D3 [P3 [K3 [S3 [Q3 [C3 [N3 [[F3 [W3 [T3 A3]]] _]]]]]]]]]].
  fold pkt in D3, P3. rewrite E3. clear E3. destruct F3.
  cbn [w_conn w_live w_event w_broker w_handles w_envok w_poison w_drained w_wire w_txbuf w_last_arrival upd_sess] in *.
  assert (Ha3 : packet_available (rd w3) = true).
  { unfold packet_available. rewrite P3. unfold read_bytes. rewrite D3. apply N.leb_refl. }
  assert (Es3 : set_reader (w_sess w3) (reader_reset (rd w3)) = set_reader (w_sess w) (reader_reset (rd w))).
  { rewrite S3. unfold reader_reset. rewrite K3. destruct (w_sess w); reflexivity. }
  rewrite wait_unfold. unfold drive_packet. rewrite fr_live, Hl. cbn [negb].
  rewrite (drive_first_pass _ false w3 (lenN pkt) p s4 d Ha3 P3); [|rewrite D3, takeN_all by apply N.le_refl; exact Hdec|rewrite Es3; exact Hh].
  exists (S (S f)), (handled w3 s4 p). unfold handled at 1 2 3 4 5 6 7 8 9.
  cbn [w_sess w_inq w_script w_now w_live w_wire w_broker w_txbuf w_last_arrival upd_drained upd_envok upd_sess].
  rewrite fr_live, fr_broker, W3, T3, A3.
  repeat (split; [assumption || reflexivity|]).
  split; intros ->; cbv beta iota; [reflexivity|]. intros w' Hdl. rewrite Hdl. reflexivity.
Qed.

Corollary poll_arrived : forall w h rl body t p s4 d,
  varint_write (lenN body) = Some rl ->
  let pkt := h :: rl ++ body in
  lenN pkt <= rcap (rd w) -> lenN pkt <= 29000 ->
  w_live w = true -> rdata (rd w) = [] -> rplen (rd w) = None ->
  next_step (s_ob (w_sess w)) = None ->
  ping_timed_out (w_sess w) (w_now w) = false -> should_queue_pingreq (w_sess w) (w_now w) = false ->
  w_script w = [] -> w_inq w = [(t, pkt)] -> t <= w_now w ->
  from_buffer pkt = Some p ->
  handle_packet (set_reader (w_sess w) (reader_reset (rd w))) p = (s4, HOk d) ->
  (d = false -> next_step (s_ob s4) = None /\ ping_timed_out s4 (w_now w) = false /\ should_queue_pingreq s4 (w_now w) = false) ->
  exists w', op_poll FUEL w = (w', ODone (if d then Some p else None)) /\
    w_sess w' = s4 /\ w_inq w' = [] /\ w_script w' = [] /\ w_now w' = w_now w /\ w_live w' = true /\
    w_wire w' = w_wire w /\ w_broker w' = w_broker w /\ w_txbuf w' = w_txbuf w /\ w_last_arrival w' = w_last_arrival w.
Proof.
  intros w h rl body t p s4 d Hrl pkt Hcap H29 Hl Hd Hpl Hn Hto Hq Hs Hi Ht Hdec Hh Hdr.
  destruct (poll_takes_packet w h rl body t p s4 d Hrl Hcap H29 Hl Hd Hpl Hn Hto Hq Hs Hi Ht Hdec Hh)
    as [f [w4 [S4 [L4 [Q4 [N4 [C4 [W4 [B4 [Hyes Hno]]]]]]]]]].
  injection B4 as B4 T4 A4. exists w4. split; [|tauto]. destruct d; [exact (Hyes eq_refl)|]. apply (Hno eq_refl).
  destruct (Hdr eq_refl) as [Hn4 [Hto4 Hq4]].
  pose proof (sf_reader _ _ (hp_frame _ _ _ (handle_packet_eff _ _ _ _ Hh))) as Hr4.
  apply drive_loop_quiet; unfold NA; rewrite S4, ?N4; try assumption. rewrite Hr4. reflexivity.
Qed.

Lemma handle_packet_pt_none : forall s p, rt_ping_timeout (s_rt s) = None ->
  rt_ping_timeout (s_rt (fst (handle_packet s p))) = None.
Proof.
  intros s p H. destruct (handle_packet s p) as [s' hr] eqn:E. cbn [fst].
  destruct (handle_packet_eff _ _ _ _ E); try exact H. reflexivity.
Qed.

Theorem poll_handles_arrived : forall w h rl body t p s4 d,
  varint_write (lenN body) = Some rl ->
  let pkt := h :: rl ++ body in
  lenN pkt <= rcap (rd w) -> lenN pkt <= 29000 ->
  w_live w = true -> rdata (rd w) = [] -> rplen (rd w) = None ->
  next_step (s_ob (w_sess w)) = None ->
  (forall dd, rt_next_ping (s_rt (w_sess w)) = Some dd -> w_now w < dd) -> rt_ping_timeout (s_rt (w_sess w)) = None ->
  w_script w = [] -> w_inq w = [(t, pkt)] -> t <= w_now w ->
  from_buffer pkt = Some p ->
  handle_packet (set_reader (w_sess w) (reader_reset (rd w))) p = (s4, HOk d) ->
  (d = false -> next_step (s_ob s4) = None) ->
  exists w', op_poll FUEL w = (w', ODone (if d then Some p else None)) /\
    w_sess w' = s4 /\ w_live w' = true /\ w_inq w' = [] /\ w_now w' = w_now w.
Proof.
  intros w h rl body t p s4 d Hrl pkt Hcap H29 Hl Hd Hpl Hn Hnp Hpt Hs Hi Ht Hdec Hh Hdr.
  set (s3 := set_reader (w_sess w) (reader_reset (rd w))) in *.
  assert (Hto : ping_timed_out (w_sess w) (w_now w) = false) by (unfold ping_timed_out; now rewrite Hpt).
  destruct (poll_arrived w h rl body t p s4 d Hrl Hcap H29 Hl Hd Hpl Hn Hto (not_due_quiet _ _ Hnp Hpt) Hs Hi Ht Hdec Hh)
    as [w' [E [S4 [Q4 [_ [N4 [L4 _]]]]]]]; [|exists w'; tauto].
  (* handling a packet neither arms the ping timeout nor moves the next ping *)
  intros ->. pose proof (handle_packet_pt_none s3 p Hpt) as Pt4.
  pose proof (sf_next_ping _ _ (hp_frame _ _ _ (handle_packet_eff _ _ _ _ Hh))) as Np4. rewrite Hh in Pt4. cbn [fst] in Pt4.
  split; [exact (Hdr eq_refl)|]. split; [unfold ping_timed_out; now rewrite Pt4|].
  apply not_due_quiet; [rewrite Np4; exact Hnp|exact Pt4].
Qed.

Theorem poll_completes_puback : forall w pid t,
  pid < 65536 -> 4 <= rcap (rd w) ->
  w_live w = true -> rdata (rd w) = [] -> rplen (rd w) = None ->
  arena_wf (s_ob (w_sess w)) -> next_step (s_ob (w_sess w)) = None ->
  (forall d, rt_next_ping (s_rt (w_sess w)) = Some d -> w_now w < d) -> rt_ping_timeout (s_rt (w_sess w)) = None ->
  w_script w = [] -> w_inq w = [(t, 64 :: [2] ++ u16_be pid)] -> t <= w_now w ->
  has_retained (s_ob (w_sess w)) pid = true ->
  exists w', op_poll FUEL w = (w', ODone None) /\ w_live w' = true /\ w_inq w' = [] /\
    (exists l', abs_remove pid (abs (s_ob (w_sess w))) = Some l' /\ abs (s_ob (w_sess w')) = l') /\
    ob_ctl (s_ob (w_sess w')) = ob_ctl (s_ob (w_sess w)) /\ ob_rel (s_ob (w_sess w')) = ob_rel (s_ob (w_sess w)) /\
    rt_quota (s_rt (w_sess w')) = N.min (N.min (rt_quota (s_rt (w_sess w)) + 1) 65535) (rt_maxquota (s_rt (w_sess w))) /\
    next_step (s_ob (w_sess w')) = None /\ packet_available (rd w') = false.
Proof.
  intros w pid t Hp Hcap Hl Hd Hpl W Hn Hnp Hpt Hs Hi Ht Hret.
  pose proof (ack_packet_found _ _ W Hret) as Hf. pose proof (next_step_ack_none _ pid W Hn) as Hn'.
  destruct (ack_packet (s_ob (w_sess w)) pid) as [o found] eqn:Ea. cbn [snd fst] in Hf, Hn'. subst found.
  destruct (ack_packet_spec _ _ _ _ W Ea) as [_ [Hc [Hr [_ Hab]]]].
  pose proof (lenN_ack4 64 pid) as Hlen.
  set (s3 := set_reader (w_sess w) (reader_reset (rd w))).
  destruct (poll_handles_arrived w 64 [2] (u16_be pid) t (RPubAck pid 0) (set_rt (set_ob s3 o) (quota_inc (s_rt s3))) false)
    as [w' [E [S [L [Q _]]]]]; try assumption; try (rewrite Hlen; lia).
  - rewrite lenN_u16; reflexivity.
  - exact (from_buffer_ack4 64 RPubAck pid de_body_puback Hp).
  - fold s3. cbn [handle_packet]. change (s_ob s3) with (s_ob (w_sess w)). rewrite Ea. reflexivity.
  - intros _. exact Hn'.
  - exists w'. unfold rd. rewrite S. cbn [set_rt set_ob set_reader s_ob s_rt s_reader quota_inc rt_with_quota rt_quota].
    repeat split; try assumption. exists (abs o). split; [exact Hab|reflexivity].
Qed.

(* non-vacuity: a QoS 1 publish sent on a connection without keep-alive, its PUBACK arrived *)
Definition ex_cfg0 : config :=
  {| cf_rx := 64; cf_tx := 128; cf_client_id := [99]; cf_keepalive_s := 0; cf_expiry := 0;
     cf_downgrade := false; cf_will := None; cf_auth := None |}.
Definition ex_inflight : world :=
  run_case {| c_cfg := ex_cfg0;
              c_prog := [AConnect [(0, [32; 3; 0; 0; 0])]; APublish ex_pub; AFeed 0 [64; 2; 0; 1]];
              c_script := [] |}.

Example puback_example :
  w_live ex_inflight = true /\ rdata (rd ex_inflight) = [] /\ rplen (rd ex_inflight) = None /\
  next_step (s_ob (w_sess ex_inflight)) = None /\
  rt_next_ping (s_rt (w_sess ex_inflight)) = None /\ rt_ping_timeout (s_rt (w_sess ex_inflight)) = None /\
  w_script ex_inflight = [] /\ w_inq ex_inflight = [(0, 64 :: [2] ++ [0; 1])] /\
  has_retained (s_ob (w_sess ex_inflight)) 1 = true /\ rt_quota (s_rt (w_sess ex_inflight)) = 7 /\
  snd (op_poll FUEL ex_inflight) = ODone None /\
  ob_ret (s_ob (w_sess (fst (op_poll FUEL ex_inflight)))) = [] /\
  rt_quota (s_rt (w_sess (fst (op_poll FUEL ex_inflight)))) = 8.
Proof. vm_compute. repeat split; reflexivity. Qed.

Corollary poll_delivers_qos0 : forall w h rl body t topic r dp props payload,
  varint_write (lenN body) = Some rl ->
  let pkt := h :: rl ++ body in
  lenN pkt <= rcap (rd w) -> lenN pkt <= 29000 ->
  w_live w = true -> rdata (rd w) = [] -> rplen (rd w) = None ->
  next_step (s_ob (w_sess w)) = None ->
  (forall dd, rt_next_ping (s_rt (w_sess w)) = Some dd -> w_now w < dd) -> rt_ping_timeout (s_rt (w_sess w)) = None ->
  w_script w = [] -> w_inq w = [(t, pkt)] -> t <= w_now w ->
  from_buffer pkt = Some (RPublish topic None Q0 r dp props payload) ->
  exists w', op_poll FUEL w = (w', ODone (Some (RPublish topic None Q0 r dp props payload))) /\ w_live w' = true.
Proof.
  intros w h rl body t topic r dp props payload Hrl pkt Hcap H29 Hl Hd Hpl Hn Hnp Hpt Hs Hi Ht Hdec.
  destruct (poll_handles_arrived w h rl body t _ _ true Hrl Hcap H29 Hl Hd Hpl Hn Hnp Hpt Hs Hi Ht Hdec eq_refl ltac:(discriminate))
    as [w' [E [_ [L _]]]].
  exists w'. split; [exact E|exact L].
Qed.
