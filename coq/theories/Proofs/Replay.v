(* Replay.v — C02 / C03 at the wire: after a connection is resumed, the drain re-sends every queued packet exactly once.

   `replay_bytes o` is a function of the outbound state `o` at the moment connect() is called: the owed acknowledgements,
   then the pending PUBRELs, then the retained packets, each queue in its own order, each retained packet with the DUP
   bit set in its first byte and otherwise byte for byte as it was accepted.  A connect() that the broker answers with
   session present leaves the queues as `compact (arm_replay o)`; what these owe the wire (Owed.v) is `replay_bytes o`;
   the drain that follows puts exactly that on the wire — on a behaving transport (drive / poll), and on any transport
   that lets the user-operation drain come to its end, however it cuts the writes, as long as no write takes time and no
   PINGREQ is due (`PQ`). *)
From Coq Require Import List NArith.
From Minimq Require Import Bytes Props Ser Reader Arena Core Machine Run Refine
  ArenaLemmas ArenaOps Inv Status WireInv Wire ConnectOk PingQuiet Healthy Engine Owed Io Step.
Import ListNotations.
Local Open Scope N_scope.

Lemma owed_fresh : forall o, Forall (fun i => fst i = SWrite 0) (items o) -> owed o = concat (map snd (items o)).
Proof.
  intros o H. rewrite owed_items, Gi_part_quiet by (eapply Forall_impl; [|exact H]; intros i E; unfold quiet; now rewrite E).
  cbn [app]. induction H as [|[st bs] l E _ IH]; [reflexivity|]. cbn [fst] in E. subst st. rewrite Gi_cons, IH. reflexivity.
Qed.

Definition replay_bytes (o : outbound) : bytes :=
  concat (map cbytes (ob_ctl o)) ++ concat (map lbytes (ob_rel o)) ++
  concat (map (fun e => dup_bytes (entry_bytes (ob_buf o) e)) (ob_ret o)).

Lemma abs_states : forall buf es, map (fun a : aentry => snd a) (map (abs_entry buf) es) = map re_st es.
Proof. intros. rewrite map_map. reflexivity. Qed.

Theorem owed_compact_arm_replay : forall o, OInv o -> owed (compact (arm_replay o)) = replay_bytes o.
Proof.
  intros o Ho. rewrite owed_items, (items_compact _ (oi_arena _ (OInv_arm_replay o Ho))), <- owed_items.
  destruct (has_pending_state o) eqn:Hp.
  - destruct (arm_replay_states o Hp) as [Fr [Fl [Fc _]]]. rewrite owed_fresh by (unfold items; rewrite !Forall_app, !Forall_map; auto).
    (* arming keeps the packets of the two small queues and sets DUP in every retained one *)
    destruct (mark_retained_dup_spec o (oi_arena _ Ho)) as [_ [Hd _]]. apply (f_equal (map (fun a : aentry => snd (fst a)))) in Hd.
    unfold abs in Hd. rewrite !map_map in Hd.
    unfold items, replay_bytes, arm_replay. rewrite Hp. cbn [negb ob_ctl ob_rel ob_ret ob_buf mark_retained_dup]. rewrite !map_app, !concat_app, !map_map.
    do 2 f_equal. exact (f_equal (@concat _) Hd).
  - unfold arm_replay. rewrite Hp. cbn [negb]. unfold has_pending_state in Hp.
    destruct (ob_ctl o) eqn:E1; [|discriminate]. destruct (ob_ret o) eqn:E2; [|discriminate]. destruct (ob_rel o) eqn:E3; [|discriminate].
    unfold owed, part_of, fresh_of, replay_bytes. rewrite E1, E2, E3. reflexivity.
Qed.

Lemma write_all_sess : forall fuel bs w, w_sess (fst (write_all fuel bs w)) = w_sess w.
Proof. intros. exact (fr_sess _ _ (write_all_frame fuel bs w)). Qed.

Lemma direct_send_sess : forall fuel bs w, w_sess (fst (direct_send fuel bs w)) = w_sess w.
Proof.
  intros. unfold direct_send, bindu. pose proof (write_all_sess fuel bs w) as H. destruct (write_all fuel bs w) as [w1 o]. cbn [fst] in H.
  destruct o; try exact H. destruct (io_flush w1) as [w2 fr] eqn:Ef. destruct (io_flush_ghost _ _ _ Ef) as [Hs _].
  destruct fr; cbn [fst]; congruence.
Qed.

Theorem connect_resumed_outbound : forall fuel w w',
  op_connect fuel w = (w', ODone 1) -> s_ob (w_sess w') = compact (arm_replay (s_ob (w_sess w))).
Proof.
  intros fuel w w' H. unfold op_connect in H.
  match type of H with context [enc_connect ?c ?r] => destruct (enc_connect c r) as [off bs|e] end; [|discriminate].
  match type of H with context [direct_send fuel bs ?x] => set (w2 := x) in *; pose proof (direct_send_sess fuel bs w2) as Hs3;
    destruct (direct_send fuel bs w2) as [w3 o3] end.
  cbn [fst] in Hs3. unfold bindu in H. destruct o3; try discriminate.
  match type of H with context [fill_packet_reader fuel None ?x] => set (w4 := x) in *; destruct (fill_same fuel None w4) as [_ Ho5];
    destruct (fill_packet_reader fuel None w4) as [w5 fr] end.
  cbn [fst] in Ho5. destruct fr; try discriminate.
  destruct (take_packet (s_reader (w_sess w5))) as [[[r' x] p]|]; [|discriminate].
  destruct (connack_process (set_reader (w_sess w5) r') p (w_now w5)) as [s6 cr] eqn:Ec.
  destruct cr as [resumed|e lat]; [|destruct lat; discriminate].
  destruct resumed; [|discriminate]. inversion H; subst w'. cbn [w_sess upd_envok upd_sess].
  (* connack_process with session present keeps the queues *)
  unfold connack_process in Ec. destruct p as [[sp rc props| | | | | | | | |]|]; try (inversion Ec; fail).
  destruct (negb (rc_success rc)); [inversion Ec|].
  match type of Ec with context [connack_props ?a ?b ?c] => destruct (connack_props a b c) as [a1|] end; [|inversion Ec].
  inversion Ec; subst sp. cbn [s_ob set_reader].
  rewrite Ho5. unfold w4. cbn [w_sess upd_sess s_ob set_rt]. rewrite Hs3. unfold w2. cbn [w_sess upd_sess s_ob set_ob]. reflexivity.
Qed.

(* on a behaving transport (drive / poll); `w1'` is the world once the caller holds the new connection handle *)
Theorem reconnect_replays : forall f1 f2 adv w w1 w1' w2 pr,
  Inv (w_sess w) -> op_connect f1 w = (w1, ODone 1) -> w_sess w1' = w_sess w1 ->
  Hd w1' -> NA w1' -> drive_loop f2 adv w1' = (w2, ODone pr) ->
  w_wire w2 = w_wire w1' ++ replay_bytes (s_ob (w_sess w)).
Proof.
  intros f1 f2 adv w w1 w1' w2 pr I Hc Hs Hh Hna Hd. rewrite (drive_loop_wire _ _ _ _ _ Hh Hna Hd).
  rewrite Hs, (connect_resumed_outbound _ _ _ Hc), (owed_compact_arm_replay _ (inv_ob _ I)). reflexivity.
Qed.

(* on any transport: the drain inside publish / subscribe / unsubscribe, whatever pieces the transport accepts *)
Theorem reconnect_replays_any_transport : forall f1 f2 w w1 w1' w2,
  Inv (w_sess w) -> op_connect f1 w = (w1, ODone 1) -> w_sess w1' = w_sess w1 ->
  WInv (w_sess w1') -> PQ w1' -> flush_outbound f2 w1' = (w2, ODone tt) ->
  w_wire w2 = w_wire w1' ++ replay_bytes (s_ob (w_sess w)) /\ next_step (s_ob (w_sess w2)) = None.
Proof.
  intros f1 f2 w w1 w1' w2 I Hc Hs I1 Hq Hf. destruct (flush_outbound_wire _ _ _ I1 Hq Hf) as [Hw Hn]. split; [|exact Hn].
  rewrite Hw, Hs, (connect_resumed_outbound _ _ _ Hc), (owed_compact_arm_replay _ (inv_ob _ I)). reflexivity.
Qed.

(* non-vacuity: all three queues hold something at the disconnect *)
Definition ex_pub2 : pub_req := {| pr_topic := [117]; pr_props := PSlice []; pr_qos := Q2; pr_payload := [9]; pr_retain := false |}.
Definition ex_inpub : bytes := [50; 7; 0; 1; 97; 0; 7; 0; 5].
(* QoS 1 publish (id 1) unacknowledged; QoS 2 publish (id 2) answered by PUBREC, its PUBREL sent; an inbound QoS 1
   publish (id 7) delivered, its PUBACK still queued; then the connection is lost *)
Definition ex_before : world :=
  run_case {| c_cfg := ex_cfgh;
              c_prog := [ASetBroker 2; AConnect []; ASetBroker 0; APublish ex_pub; APublish ex_pub2; AFeed 0 [80; 2; 0; 2]; APoll;
                         AFeed 0 ex_inpub; APoll; AHandleDisconnect; ASetBroker 2];
              c_script := [] |}.
Definition new_transport (w : world) : world :=
  upd_poison (upd_wire (upd_txbuf (upd_inq (upd_live w false false 0) [] (w_now w)) []) []) false.
Definition ex_new : world := new_transport ex_before.
Definition ex_conn : world := upd_live (fst (op_connect FUEL ex_new)) true true 1.
(* a transport that takes three bytes at a time *)
Definition ex_frag : world := upd_script ex_conn (repeat (0, 3) 40).

Example replay_example :
  snd (op_connect FUEL ex_new) = ODone 1 /\
  replay_bytes (s_ob (w_sess ex_new)) = [64; 3; 0; 7; 0] ++ [98; 3; 0; 2; 0] ++ [58; 9; 0; 1; 116; 0; 1; 0; 1; 2; 3] /\
  snd (op_drive FUEL ex_conn) = ODone None /\
  w_wire (fst (op_drive FUEL ex_conn)) = w_wire ex_conn ++ replay_bytes (s_ob (w_sess ex_new)) /\
  snd (flush_outbound FUEL ex_frag) = ODone tt /\
  w_wire (fst (flush_outbound FUEL ex_frag)) = w_wire ex_frag ++ replay_bytes (s_ob (w_sess ex_new)).
Proof. vm_compute. repeat split. Qed.

(* the hypotheses of the two theorems hold of these worlds.  (Closed worlds are only ever evaluated by vm_compute: every
   other step names the hypothesis it uses, so that no tactic starts to normalise `ex_conn` by itself.) *)
Lemma new_transport_sess : forall w, w_sess (new_transport w) = w_sess w.
Proof. reflexivity. Qed.
Lemma upd_live_sess : forall w a b c, w_sess (upd_live w a b c) = w_sess w.
Proof. reflexivity. Qed.
Lemma upd_script_sess : forall w l, w_sess (upd_script w l) = w_sess w.
Proof. reflexivity. Qed.
Lemma upd_script_script : forall w l, w_script (upd_script w l) = l.
Proof. reflexivity. Qed.
Lemma one_fresh : forall {A} (st : A -> sstate) (l : list A), map st l = [SWrite 0] -> Forall (fun e => okst (st e)) l.
Proof.
  intros A st l H. destruct l as [|x [|y t]]; try discriminate H. cbn [map] in H. injection H as H.
  constructor; [rewrite H; reflexivity|constructor].
Qed.

Example replay_hyps_met :
  Inv (w_sess ex_new) /\ w_sess ex_conn = w_sess (fst (op_connect FUEL ex_new)) /\ Hd ex_conn /\ NA ex_conn /\
  w_sess ex_frag = w_sess (fst (op_connect FUEL ex_new)) /\ WInv (w_sess ex_frag) /\ PQ ex_frag.
Proof.
  assert (I0 : WInv (w_sess ex_new)).
  { unfold ex_new. rewrite new_transport_sess. unfold ex_before. apply (proj1 (run_case_good _)). }
  assert (Ec : w_sess ex_conn = w_sess (fst (op_connect FUEL ex_new))) by (unfold ex_conn; apply upd_live_sess).
  assert (Ef : w_sess ex_frag = w_sess ex_conn) by (unfold ex_frag; apply upd_script_sess).
  assert (I1 : WInv (w_sess ex_conn)).
  { rewrite Ec. eapply WInv_wq; [apply op_connect_wq|exact I0]. }
  assert (Np : rt_next_ping (s_rt (w_sess ex_conn)) = None) by (vm_compute; reflexivity).
  assert (Pt : rt_ping_timeout (s_rt (w_sess ex_conn)) = None) by (vm_compute; reflexivity).
  assert (Ka : rt_ka_ms (s_rt (w_sess ex_conn)) = 0) by (vm_compute; reflexivity).
  assert (Sc : w_script ex_conn = []) by (vm_compute; reflexivity).
  assert (Lv : w_live ex_conn = true) by (vm_compute; reflexivity).
  assert (Mp : rt_mps (s_rt (w_sess ex_conn)) = None) by (vm_compute; reflexivity).
  assert (Sc' : map ce_st (ob_ctl (s_ob (w_sess ex_conn))) = [SWrite 0]) by (vm_compute; reflexivity).
  assert (Sl' : map le_st (ob_rel (s_ob (w_sess ex_conn))) = [SWrite 0]) by (vm_compute; reflexivity).
  assert (Sr' : map re_st (ob_ret (s_ob (w_sess ex_conn))) = [SWrite 0]) by (vm_compute; reflexivity).
  assert (Na : packet_available (s_reader (w_sess ex_conn)) = false) by (vm_compute; reflexivity).
  assert (Bl' : lenN (ob_buf (s_ob (w_sess ex_conn))) <= BIG) by (vm_compute; intros X; discriminate X).
  assert (Q1 : PQ ex_conn).
  { split; [vm_compute; reflexivity|]. unfold Calm. exact (eq_ind_r (fun l => Forall (fun e => slow_ev e = false) l) (Forall_nil _) Sc). }
  assert (H1 : Hd ex_conn).
  { split; [|exact Q1]. unfold Hc.
    split; [exact Sc|]. split; [exact Lv|]. split; [exact I1|]. split; [exact Mp|].
    split; [intros d E; pose proof (eq_trans (eq_sym Pt) E) as X; discriminate X|].
    split; [exact Bl'|]. split; [apply (one_fresh ce_st); exact Sc'|]. split; [apply (one_fresh le_st); exact Sl'|apply (one_fresh re_st); exact Sr']. }
  assert (H2 : PQ ex_frag).
  { split; [vm_compute; reflexivity|]. unfold Calm, ex_frag. rewrite upd_script_script.
    apply Forall_forall. intros x Hx. apply repeat_spec in Hx. subst x. reflexivity. }
  split; [exact (proj1 I0)|]. split; [exact Ec|]. split; [exact H1|]. split; [exact Na|].
  split; [exact (eq_trans Ef Ec)|]. split; [|exact H2].
  exact (eq_ind_r (fun s => WInv s) I1 Ef).
Qed.

Lemma replay_bytes_unfold : forall o, replay_bytes o =
  concat (map (fun e => ctl_bytes (ce_act e)) (ob_ctl o)) ++
  concat (map (fun e => rel_bytes (le_pid e) (le_rc e)) (ob_rel o)) ++
  concat (map (fun e => dup_bytes (sliceN (re_off e) (re_len e) (ob_buf o))) (ob_ret o)).
Proof. reflexivity. Qed.
