(* Cap.v — the arena never changes size, and a quiescent arena offers exactly what a new one offers (C17 b). *)
From Coq Require Import Lia.
From Minimq Require Import Util Effects Bytes Arena Core.
From Minimq Require Import ArenaOps Inv Lts CfgFrame.

Definition CapInv (s : session) : Prop := lenN (ob_buf (s_ob s)) = cf_tx (s_cfg s).

Lemma lenN_zerosN : forall n, lenN (zerosN n) = n.
Proof.
  intros n. unfold zerosN. rewrite lenN_length.
  assert (H : forall k (x : N), length (repeatN_fuel k x) = k) by (induction k; intros; cbn [repeatN_fuel length]; [reflexivity|now rewrite IHk]).
  rewrite H. lia.
Qed.

Lemma CapInv_init : forall c, CapInv (session_new c).
Proof. intros. unfold CapInv. cbn [session_new s_ob s_cfg ob_new ob_buf]. apply lenN_zerosN. Qed.

Lemma encode_at_len : forall o enc, OInv o -> fits enc ->
  lenN (ob_buf (fst (encode_at o enc))) = lenN (ob_buf o).
Proof.
  intros o enc H Henc. apply (encode_at_spec _ _ _ _ (oi_arena _ H) Henc (surjective_pairing _)).
Qed.

Lemma arm_replay_len : forall o, OInv o -> lenN (ob_buf (arm_replay o)) = lenN (ob_buf o).
Proof.
  intros o H. destruct (arm_replay_cases o) as [->|[Hb _]]; [reflexivity|]. rewrite Hb.
  apply (mark_retained_dup_spec o (oi_arena _ H)).
Qed.

Lemma ack_packet_len : forall o pid, OInv o -> lenN (ob_buf (fst (ack_packet o pid))) = lenN (ob_buf o).
Proof.
  intros o pid H. destruct (ack_packet o pid) as [o' f] eqn:E.
  destruct (ack_packet_spec o pid o' f (oi_arena _ H) E) as [_ [_ [_ [Hl _]]]]. exact Hl.
Qed.

Lemma hp_len : forall s p s', hp_eff s p s' -> Inv s -> lenN (ob_buf (s_ob s')) = lenN (ob_buf (s_ob s)).
Proof.
  intros s p s' H I. pose proof (ack_packet_len (s_ob s)) as A.
  destruct H as [|a o v Hq Hv|i v Hs|i o Hi Ha|i o Hi Ha|i o o2 Hi Ha Hr|i o Hc|]; cbn [set_srv set_ob set_rt s_ob]; try reflexivity.
  - now destruct (queue_control_inv _ _ _ Hq) as [-> _].
  - specialize (A i (inv_ob _ I)). now rewrite Ha in A.
  - specialize (A i (inv_ob _ I)). now rewrite Ha in A.
  - specialize (A i (inv_ob _ I)). rewrite Ha in A. now destruct (queue_release_inv _ _ _ _ Hr) as [-> _].
  - now destruct (ack_release_inv _ _ _ Hc) as [es [_ ->]].
Qed.

Lemma mid_len : forall D dec live s s' m, mid_out (fun _ => req_enc dec) D dec live s s' m -> Inv s -> lenN (ob_buf (s_ob s')) = lenN (ob_buf (s_ob s)).
Proof.
  intros D dec live s s' m H I. pose proof (inv_ob _ I) as HO.
  destruct H as [e _|e _ _|bs _ _ _ _|p id e Hn _|p id enc e Hn He _|p id enc o1 off len o2 k Hn He Ha _ Hr _]; cbn [set_ob set_pid s_ob]; try reflexivity.
  1, 2: apply (compact_spec _ (oi_arena _ HO)).
  - apply encode_at_len; [exact HO | exact (req_enc_fits _ _ He)].
  - pose proof (encode_at_len _ _ HO (req_enc_fits _ _ He)) as Hl. rewrite Ha in Hl. destruct (retain_packet_inv _ _ _ _ _ Hr) as [-> _].
    destruct dec; exact Hl.
Qed.

Lemma sstep_len : forall s l s', sstep s l s' -> Inv s -> lenN (ob_buf (s_ob s')) = lenN (ob_buf (s_ob s)).
Proof.
  intros s l s' H I. pose proof (inv_ob _ I) as HO.
  destruct (sstep_seff _ _ _ H) as [o r rd Ho _ _|p|D dec live s' m M|sp a its now _|p _]; try reflexivity.
  - cbn [set_reader set_rt set_ob s_ob]. destruct Ho.
    + reflexivity.
    + now apply arm_replay_len.
    + apply (compact_spec _ (oi_arena _ HO)).
    + now destruct (queue_control_inv _ _ _ H0) as [-> _].
    + destruct (set_written_states s p (w + n) len) as [E _]. now rewrite E.
    + destruct (complete_flush_states s p now) as [E _]. now rewrite E.
  - eapply hp_len; [eapply handle_packet_eff, surjective_pairing|exact I].
  - eapply mid_len; eassumption.
  - now destruct sp.
Qed.

Lemma CapInv_step : forall s l s', sstep s l s' -> Inv s -> CapInv s -> CapInv s'.
Proof. intros s l s' H I Hc. unfold CapInv in *. now rewrite (sstep_cfg _ _ _ H), (sstep_len _ _ _ H I). Qed.

Lemma quiescent_compact : forall o, ob_ret o = [] ->
  ob_used (compact o) = 0 /\ ob_buf (compact o) = ob_buf o /\ ob_ret (compact o) = [].
Proof. intros o H. unfold compact. rewrite H. cbn [compact_go ob_used ob_buf ob_ret]. repeat split; reflexivity. Qed.

Lemma quiescent_encode_same : forall o cap enc, ob_ret o = [] -> lenN (ob_buf o) = cap ->
  snd (encode_at o enc) = snd (encode_at (ob_new cap) enc).
Proof.
  intros o cap enc Hr Hl. unfold encode_at.
  destruct (quiescent_compact o Hr) as [U1 [B1 _]]. destruct (quiescent_compact (ob_new cap) eq_refl) as [U2 [B2 _]].
  unfold ob_cap. rewrite U1, U2, B1, B2, Hl. cbn [ob_new ob_buf]. rewrite lenN_zerosN.
  destruct (enc (cap - 0)); reflexivity.
Qed.

Lemma quiescent_admission_same : forall o cap, ob_ret o = [] -> lenN (ob_buf o) = cap ->
  scratch_len o = scratch_len (ob_new cap) /\ can_retain o = can_retain (ob_new cap) /\
  retained_full o = retained_full (ob_new cap).
Proof.
  intros o cap Hr Hl.
  assert (Hs : scratch_len o = scratch_len (ob_new cap)).
  { unfold scratch_len, used_after_compact, ob_cap. rewrite Hr, Hl. cbn [ob_new ob_ret ob_buf map sumN].
    now rewrite lenN_zerosN. }
  split; [exact Hs|]. split.
  - unfold can_retain. rewrite Hs, Hr. reflexivity.
  - unfold retained_full. rewrite Hr. reflexivity.
Qed.
