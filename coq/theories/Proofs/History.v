(* History.v — C16 for histories of any length: on a healthy connection without keep-alive, answered by the broker, the state
   "idle" (nothing queued, nothing in the reader, nothing in flight between client and broker) is re-established by every
   complete exchange — QoS 1, QoS 2, SUBSCRIBE, UNSUBSCRIBE — and by an inbound QoS 0 message.  Hence every history of such
   requests, each followed by its poll(), completes every one of them. *)
From Minimq Require Import Bytes Varint Props Ser De Reader Arena Core Machine Run Lts
  Inv WireInv Wire
  Effects ConnectOk PingQuiet Healthy Sends Framing Liveness PingAt Exchange Exchange2 Exchange3 CfgFrame.
Import ListNotations.
Local Open Scope N_scope.
Local Opaque u16_be.

(* Liveness.poll_handles_arrived, also accounting for the script, the wire and the broker's side *)
Theorem poll_handles_arrived_full : forall w h rl body t p s4,
  varint_write (lenN body) = Some rl ->
  let pkt := h :: rl ++ body in
  lenN pkt <= rcap (rd w) -> lenN pkt <= 29000 ->
  w_live w = true -> rdata (rd w) = [] -> rplen (rd w) = None ->
  next_step (s_ob (w_sess w)) = None ->
  rt_next_ping (s_rt (w_sess w)) = None -> rt_ping_timeout (s_rt (w_sess w)) = None ->
  w_script w = [] -> w_inq w = [(t, pkt)] -> t <= w_now w ->
  from_buffer pkt = Some p ->
  handle_packet (set_reader (w_sess w) (reader_reset (rd w))) p = (s4, HOk false) ->
  next_step (s_ob s4) = None ->
  exists w', op_poll FUEL w = (w', ODone None) /\
    w_sess w' = s4 /\ w_live w' = true /\ w_inq w' = [] /\ w_now w' = w_now w /\
    w_script w' = [] /\ w_wire w' = w_wire w /\ bt w' = bt w.
Proof.
  intros w h rl body t p s4 Hrl pkt Hcap H29 Hl Hd Hpl Hn Hnp Hpt Hs Hi Ht Hdec Hh Hdr.
  set (s3 := set_reader (w_sess w) (reader_reset (rd w))) in *.
  pose proof (handle_packet_pt_none s3 p Hpt) as Pt4. rewrite Hh in Pt4. cbn [fst] in Pt4.
  pose proof (KeepAlive.tframe_handle_packet s3 p) as [_ Np4]. rewrite Hh in Np4. cbn [fst s3 set_reader s_rt] in Np4. rewrite Hnp in Np4.
  destruct (no_timers_quiet (w_sess w) (w_now w) Hnp Hpt) as [Hto Hq]. destruct (no_timers_quiet s4 (w_now w) Np4 Pt4) as [Hto4 Hq4].
  destruct (poll_arrived w h rl body t p s4 false Hrl) as [w' [E [S' [Q' [C' [N' [L' [W' [B' [T' A']]]]]]]]]]; try assumption;
    [intros _; split; [exact Hdr|split; assumption]|].
  exists w'. unfold bt. rewrite B', T', A'. repeat split; assumption.
Qed.

Definition Idle (w : world) : Prop :=
  Hc w /\
  ob_ctl (s_ob (w_sess w)) = [] /\ ob_rel (s_ob (w_sess w)) = [] /\ ob_ret (s_ob (w_sess w)) = [] /\
  rt_ka_ms (s_rt (w_sess w)) = 0 /\ rt_next_ping (s_rt (w_sess w)) = None /\ rt_ping_timeout (s_rt (w_sess w)) = None /\
  w_broker w = 1 /\ w_txbuf w = [] /\ w_inq w = [] /\ w_last_arrival w <= w_now w /\
  rdata (rd w) = [] /\ rplen (rd w) = None /\ 6 <= rcap (rd w).

Lemma idle_await : forall w, Idle w -> Await [] [] [] 6 w.
Proof.
  intros w [Hcw [Ec [El [Er [Hka [Hnp [Hpt [Hbr [Htx [Hiq [Hla [Hrd [Hrp Hcap]]]]]]]]]]]]].
  exact (await_intro (conn_intro Hcw Ec El Er Hka Hnp Hpt Hbr Htx Hiq Hla) (room_intro _ Hrd Hrp Hcap)).
Qed.
Lemma await_idle : forall w, Await [] [] [] 6 w -> Idle w.
Proof. intros w [[Hcw Ec El Er Hka Hnp Hpt Hbr Htx Hiq Hla] [Hrd Hrp Hcap]]. unfold Idle. tauto. Qed.

Lemma idle_after_ack : forall w1 w2 s4 e now0,
  Hc w1 -> ob_ctl (s_ob (w_sess w1)) = [] -> ob_rel (s_ob (w_sess w1)) = [] -> ob_ret (s_ob (w_sess w1)) = [sent_entry e] ->
  rt_ka_ms (s_rt (w_sess w1)) = 0 -> rt_next_ping (s_rt (w_sess w1)) = None -> rt_ping_timeout (s_rt (w_sess w1)) = None ->
  w_broker w1 = 1 -> w_txbuf w1 = [] -> w_last_arrival w1 = now0 -> now0 <= w_now w1 ->
  6 <= rcap (rd w1) ->
  forall p,
  sstep (set_reader (w_sess w1) (reader_reset (rd w1))) (LPacket (ack_type_ok (set_reader (w_sess w1) (reader_reset (rd w1))) p)) s4 ->
  s_reader s4 = reader_reset (rd w1) ->
  s_ob s4 = compact {| ob_buf := ob_buf (s_ob (w_sess w1)); ob_used := ob_used (s_ob (w_sess w1)); ob_ctl := []; ob_ret := []; ob_rel := [] |} ->
  rt_mps (s_rt s4) = None -> rt_ka_ms (s_rt s4) = 0 -> rt_next_ping (s_rt s4) = None -> rt_ping_timeout (s_rt s4) = None ->
  w_sess w2 = s4 -> w_live w2 = true -> w_inq w2 = [] -> w_now w2 = w_now w1 -> w_script w2 = [] -> bt w2 = bt w1 ->
  Idle w2.
Proof.
  intros w1 w2 s4 e now0 Hc1 Ec El Er Hka Hnp Hpt Hbr Htx Hla Hle Hcap p Hstep Hrd Hob Hmps Hka4 Hnp4 Hpt4 S2 L2 Q2 N2 C2 B2.
  pose proof Hc1 as [_ [_ [I1 [_ [_ [HB _]]]]]].
  unfold bt in B2. injection B2 as Bb Bt Bl.
  assert (Eo : s_ob s4 = {| ob_buf := ob_buf (s_ob (w_sess w1)); ob_used := 0; ob_ctl := []; ob_ret := []; ob_rel := [] |})
    by (rewrite Hob; reflexivity).
  apply await_idle, await_quiet; unfold rd; rewrite ?S2, ?Eo, ?Hrd, ?Bb, ?Bt, ?Bl, ?N2, ?Hla; try assumption; try reflexivity.
  eapply WInv_step; [exact Hstep|]. eapply WInv_step; [apply SS_reader|exact I1].
Qed.

Lemma publish_window : forall w r s2 op,
  Idle w -> publish_middle (w_sess w) true r = (s2, MRetained op) ->
  s_rt s2 = rt_with_quota (s_rt (w_sess w)) (rt_quota (s_rt (w_sess w)) - 1) /\ rt_quota (s_rt (w_sess w)) <> 0 /\ op_pid op < 65536.
Proof.
  intros w r s2 op [Hcw [Ec [El [Er _]]]] H. pose proof Hcw as [_ [_ [[I _] _]]].
  destruct (publish_middle_quiescent _ _ _ _ I Ec El Er H) as [_ [_ [_ [_ [_ [_ [_ [Hid [Hrt Hqu]]]]]]]]].
  exact (conj Hrt (conj Hqu Hid)).
Qed.

Lemma encode_at_empty : forall o enc off bs, ob_ret o = [] -> enc (ob_cap o) = SOk off bs ->
  encode_at o enc = ({| ob_buf := overwrite (ob_buf o) (0 + off) bs; ob_used := 0; ob_ctl := ob_ctl o; ob_ret := []; ob_rel := ob_rel o |},
                     EOk (0 + off) (lenN bs)).
Proof.
  intros o enc off bs Hret Hb. unfold encode_at, compact. rewrite Hret. cbn [compact_go ob_used ob_cap ob_buf ob_ctl ob_ret ob_rel].
  unfold ob_cap in *. cbn [ob_buf]. rewrite N.sub_0_r, Hb. reflexivity.
Qed.

Lemma publish_accepted_idle : forall s r q,
  ob_ret (s_ob s) = [] -> rt_mps (s_rt s) = None -> rt_quota (s_rt s) <> 0 -> 5 <= ob_cap (s_ob s) ->
  props_valid_for (pr_props r) CtxPublish = true -> effective_qos s (pr_qos r) = q -> q <> Q0 ->
  (forall id, exists off bs, enc_publish (ob_cap (s_ob s)) (pub_request r q id) = SOk off bs) ->
  exists s2 op, publish_middle s true r = (s2, MRetained op).
Proof.
  intros s r q Hret Hmps Hquota Hcap Hvalid Hq Hq0 Henc.
  unfold publish_middle. rewrite Hvalid. cbn [negb]. rewrite Hq.
  destruct (next_packet_id s) as [s1 id] eqn:En. rewrite (next_packet_id_set_pid _ _ _ En). set (s1' := set_pid s (s_pid s1)).
  assert (Hfull : retained_full (s_ob s1') = false) by (unfold retained_full; cbn [s1' set_pid s_ob]; rewrite Hret; reflexivity).
  assert (Hcan : sess_can_publish s1' q = true).
  { unfold sess_can_publish. cbn [s1' set_pid s_ob s_rt]. unfold can_retain, scratch_len, used_after_compact. rewrite Hret. cbn [map sumN].
    rewrite N.sub_0_r. apply N.eqb_neq in Hquota. rewrite Hquota. cbn [negb andb].
    change (glen [] <? MAX_RETAINED) with true. cbn [andb]. unfold MAX_FIXED_HEADER_SIZE.
    destruct q; [contradiction| |]; apply N.leb_le; exact Hcap. }
  destruct (Henc id) as [off [bs Hb]].
  pose proof (encode_at_empty (s_ob s1') (fun cap => enc_publish cap (pub_request r q id)) off bs Hret Hb) as Hen.
  destruct q; [contradiction| |];
    rewrite Hfull, Hcan; cbn [andb negb]; cbv zeta; unfold pub_request in Hen; rewrite Hen;
    cbn [s1' set_pid set_ob s_rt]; rewrite Hmps; cbn [too_large]; unfold retain_packet; cbn [ob_ret];
    change (MAX_RETAINED <=? glen []) with false; cbv iota; eexists; eexists; reflexivity.
Qed.

Theorem qos1_exchange_idle : forall w r s2 op ps,
  Idle w ->
  publish_middle (w_sess w) true r = (s2, MRetained op) ->
  effective_qos (w_sess w) (pr_qos r) = Q1 -> pr_props r = PSlice ps -> op_pid op < 65536 ->
  exists w1 w2 bs cap off,
    op_publish FUEL r w = (w1, ODone (Some op)) /\
    enc_publish cap (pub_request r Q1 (op_pid op)) = SOk off bs /\ w_wire w1 = w_wire w ++ bs /\
    op_poll FUEL w1 = (w2, ODone None) /\ w_wire w2 = w_wire w1 /\ w_now w2 = w_now w /\
    has_retained (s_ob (w_sess w2)) (op_pid op) = false /\
    rt_quota (s_rt (w_sess w2)) = N.min (N.min (rt_quota (s_rt (w_sess w)) - 1 + 1) 65535) (rt_maxquota (s_rt (w_sess w))) /\
    rt_maxquota (s_rt (w_sess w2)) = rt_maxquota (s_rt (w_sess w)) /\ rt_quota (s_rt (w_sess w)) <> 0 /\
    ob_cap (s_ob (w_sess w2)) = ob_cap (s_ob (w_sess w)) /\
    rt_maxqos (s_rt (w_sess w2)) = rt_maxqos (s_rt (w_sess w)) /\
    Idle w2.
Proof.
  intros w r s2 op ps Hi Hm Hq1 Hps Hid.
  destruct (qos1_exchange 6 w r s2 op ps (idle_await w Hi) ltac:(discriminate) Hm Hq1 Hps)
    as [w1 [w2 [bs [cap [off [E1 [Hb [Hw1 [E2 [W2 [N2 [S2 [Rt1 [Cp2 A2]]]]]]]]]]]]]].
  destruct (publish_window _ _ _ _ Hi Hm) as [Rt2 [Hq0 _]].
  exists w1, w2, bs, cap, off. repeat (split; [assumption|]).
  split; [unfold has_retained; rewrite (cn_ret (aw_conn A2)); reflexivity|].
  rewrite S2, Rt1, Rt2. repeat (split; [reflexivity|]). split; [exact Hq0|]. split; [exact Cp2|]. split; [reflexivity|exact (await_idle _ A2)].
Qed.

Definition IdleQ (w : world) : Prop :=
  Idle w /\ 1 <= rt_quota (s_rt (w_sess w)) /\ rt_quota (s_rt (w_sess w)) <= rt_maxquota (s_rt (w_sess w)) /\
  rt_maxquota (s_rt (w_sess w)) <= 65535 /\ 5 <= ob_cap (s_ob (w_sess w)).

Lemma idleq_same_window : forall w w2, IdleQ w -> Idle w2 ->
  rt_quota (s_rt (w_sess w2)) = rt_quota (s_rt (w_sess w)) -> rt_maxquota (s_rt (w_sess w2)) = rt_maxquota (s_rt (w_sess w)) ->
  ob_cap (s_ob (w_sess w2)) = ob_cap (s_ob (w_sess w)) -> IdleQ w2.
Proof. intros w w2 [_ [H1 [H2 [H3 H4]]]] Hi Eq Em Ec. split; [exact Hi|]. rewrite Eq, Em, Ec. repeat split; assumption. Qed.

(* the slot a publish took from the send window comes back with its final acknowledgement *)
Lemma window_restored : forall w, IdleQ w ->
  N.min (N.min (rt_quota (s_rt (w_sess w)) - 1 + 1) 65535) (rt_maxquota (s_rt (w_sess w))) = rt_quota (s_rt (w_sess w)).
Proof. intros w [_ [H1 [H2 [H3 _]]]]. lia. Qed.

(* each request is judged against the world it meets, the one the earlier exchanges leave *)
Fixpoint wanted (cap : N) (rs : list pub_req) (w : world) : Prop :=
  match rs with
  | [] => True
  | r :: t =>
      props_valid_for (pr_props r) CtxPublish = true /\ (exists ps, pr_props r = PSlice ps) /\
      effective_qos (w_sess w) (pr_qos r) = Q1 /\
      (forall id, exists off bs, enc_publish cap (pub_request r Q1 id) = SOk off bs) /\
      forall w1 o w2, op_publish FUEL r w = (w1, ODone o) -> op_poll FUEL w1 = (w2, ODone None) -> wanted cap t w2
  end.

Inductive q1_history : world -> list pub_req -> world -> Prop :=
| q1h_nil : forall w, q1_history w [] w
| q1h_cons : forall w r rs op w1 w2 w' cap off bs,
    op_publish FUEL r w = (w1, ODone (Some op)) ->
    enc_publish cap (pub_request r Q1 (op_pid op)) = SOk off bs -> w_wire w1 = w_wire w ++ bs ->
    op_poll FUEL w1 = (w2, ODone None) -> w_wire w2 = w_wire w1 ->
    has_retained (s_ob (w_sess w2)) (op_pid op) = false ->
    q1_history w2 rs w' -> q1_history w (r :: rs) w'.

Theorem qos1_history_completes : forall rs w,
  IdleQ w -> wanted (ob_cap (s_ob (w_sess w))) rs w ->
  exists w', q1_history w rs w' /\ IdleQ w' /\ w_now w' = w_now w.
Proof.
  induction rs as [|r rs IH]; intros w HI HW.
  - exists w. split; [constructor|]. split; [exact HI|reflexivity].
  - pose proof HI as [Hi [Hq1 [_ [_ Hcap]]]].
    cbn [wanted] in HW. destruct HW as [Hv [[ps Hps] [He [Henc Hnext]]]].
    pose proof Hi as [Hcw [_ [_ [Er _]]]]. pose proof Hcw as [_ [_ [I0 [Hmps _]]]].
    assert (Hq0 : rt_quota (s_rt (w_sess w)) <> 0) by lia.
    destruct (publish_accepted_idle (w_sess w) r Q1 Er Hmps Hq0 Hcap Hv He ltac:(discriminate) Henc) as [s2 [op Hm]].
    destruct (publish_window _ _ _ _ Hi Hm) as [_ [_ Hid]].
    destruct (qos1_exchange_idle w r s2 op ps Hi Hm He Hps Hid)
      as [w1 [w2 [bs [cap [off [E1 [Hb [Hw1 [E2 [Hw2 [Hn2 [Hr2 [Hqu [Hmq [_ [Hc2 [_ Hi2]]]]]]]]]]]]]]]]].
    rewrite (window_restored w HI) in Hqu.
    specialize (Hnext w1 (Some op) w2 E1 E2). rewrite <- Hc2 in Hnext.
    destruct (IH w2 (idleq_same_window w w2 HI Hi2 Hqu Hmq Hc2) Hnext) as [w' [Hh [HI' Hn']]].
    exists w'. split; [econstructor; eassumption|]. split; [exact HI'|]. rewrite Hn'. exact Hn2.
Qed.

Definition ex_h1 : world := fst (op_poll FUEL (fst (op_publish FUEL ex_pub ex_b1))).

Lemma ex_b1_idleq : IdleQ ex_b1.
Proof.
  split; [split; [exact (proj1 exchange_hyps_met)|]|]; vm_compute; repeat split; try reflexivity; intros X; discriminate X.
Qed.
Lemma ex_b1_cap : ob_cap (s_ob (w_sess ex_b1)) = 128.
Proof. vm_compute. reflexivity. Qed.

Example history_hyps_met :
  IdleQ ex_b1 /\ wanted (ob_cap (s_ob (w_sess ex_b1))) [ex_pub; ex_pub] ex_b1.
Proof.
  split; [exact ex_b1_idleq|]. rewrite ex_b1_cap.
  assert (V : props_valid_for (pr_props ex_pub) CtxPublish = true) by (vm_compute; reflexivity).
  assert (A11 : effective_qos (w_sess ex_b1) (pr_qos ex_pub) = Q1) by (vm_compute; reflexivity).
  assert (B11 : effective_qos (w_sess ex_h1) (pr_qos ex_pub) = Q1) by (vm_compute; reflexivity).
  assert (F : forall id, exists off bs, enc_publish 128 (pub_request ex_pub Q1 id) = SOk off bs)
    by (intros id; eexists; eexists; vm_compute; reflexivity).
  cbn [wanted]. split; [exact V|]. split; [exists []; reflexivity|]. split; [exact A11|]. split; [exact F|].
  intros w1 o w2 H1 H2.
  assert (W1 : w1 = fst (op_publish FUEL ex_pub ex_b1)) by exact (eq_sym (f_equal fst H1)).
  assert (W2 : w2 = fst (op_poll FUEL w1)) by exact (eq_sym (f_equal fst H2)).
  assert (W3 : w2 = ex_h1) by (unfold ex_h1; exact (eq_trans W2 (f_equal (fun x => fst (op_poll FUEL x)) W1))).
  clear H1 H2 W1 W2. subst w2.
  split; [exact V|]. split; [exists []; reflexivity|]. split; [exact B11|]. split; [exact F|]. intros; exact I.
Qed.

Lemma enqueued_exchange_idle : forall f w s2 e bs h rl rest hd p pid cap0 off0 (enc : N -> sres),
  Idle w -> WInv s2 -> pid < 65536 ->
  enc cap0 = SOk off0 bs ->
  ob_ctl (s_ob s2) = [] -> ob_rel (s_ob s2) = [] -> ob_ret (s_ob s2) = [e] ->
  re_pid e = pid -> sliceN (re_off e) (re_len e) (ob_buf (s_ob s2)) = bs -> re_st e = SWrite 0 ->
  pframe (w_sess w) s2 -> s_rt s2 = s_rt (w_sess w) -> s_reader s2 = s_reader (w_sess w) ->
  lenN (ob_buf (s_ob s2)) = lenN (ob_buf (s_ob (w_sess w))) ->
  bs = h :: rl ++ u16_be pid ++ rest -> varint_write (lenN (u16_be pid ++ rest)) = Some rl ->
  broker_reply 1 bs = hd :: [4] ++ u16_be pid ++ [0; 0] ->
  from_buffer (hd :: [4] ++ u16_be pid ++ [0; 0]) = Some p ->
  (forall s, ob_ret (s_ob s) = [sent_entry e] ->
     handle_packet s p = (set_ob s (compact {| ob_buf := ob_buf (s_ob s); ob_used := ob_used (s_ob s); ob_ctl := ob_ctl (s_ob s); ob_ret := []; ob_rel := ob_rel (s_ob s) |}), HOk false)) ->
  exists w3 w4,
    flush_outbound (S (S f)) (upd_sess w s2) = (w3, ODone tt) /\ w_wire w3 = w_wire w ++ bs /\
    op_poll FUEL w3 = (w4, ODone None) /\ w_wire w4 = w_wire w3 /\ w_now w4 = w_now w /\
    has_retained (s_ob (w_sess w4)) pid = false /\
    s_rt (w_sess w4) = s_rt (w_sess w) /\ ob_cap (s_ob (w_sess w4)) = ob_cap (s_ob (w_sess w)) /\
    Idle w4.
Proof.
  intros f w s2 e bs h rl rest hd p pid cap0 off0 enc Hi I2 Hid Hb Ec2 El2 Er2 Epid Ebs Est Hpf Hrt2 Hrd2 Hlen2 Elay Hrl Hrep Hdec Hh.
  pose proof (idle_await w Hi) as A0. pose proof (aw_conn A0) as H.
  pose proof (enqueued_intro Ec2 El2 Er2 Est Ebs Hpf (f_equal rt_ka_ms Hrt2) (f_equal rt_mps Hrt2) Hrd2 Hlen2) as Henq.
  destruct (enqueued_exchange f 6 w s2 e bs h rl rest hd p pid A0 (N.le_refl 6) I2 Henq Epid Hrt2 Elay Hrl Hrep Hdec Hh)
    as [w3 [w4 [E3 [Hw3 [_ [E4 [W4 [N4 [Rt4 [Bu4 A4]]]]]]]]]].
  exists w3, w4. split; [exact E3|]. split; [exact Hw3|]. split; [exact E4|]. split; [exact W4|]. split; [exact N4|].
  split; [unfold has_retained; rewrite (cn_ret (aw_conn A4)); reflexivity|].
  split; [rewrite Rt4; exact (note_outbound_activity_idle _ _ (cn_ka H) (cn_np H) (cn_pt H))|].
  split; [unfold ob_cap; rewrite Bu4; exact Hlen2|exact (await_idle _ A4)].
Qed.

Theorem subscribe_exchange_idle : forall w topics ps s2 op,
  Idle w -> topics <> [] -> props_valid_for (PSlice ps) CtxSubscribe = true ->
  subscribe_middle (w_sess w) topics ps = (s2, MRetained op) -> op_pid op < 65536 ->
  exists w1 w2 bs cap off,
    op_subscribe FUEL topics ps w = (w1, ODone (Some op)) /\
    enc_subscribe cap {| sq_pid := op_pid op; sq_props := ps; sq_topics := topics |} = SOk off bs /\ w_wire w1 = w_wire w ++ bs /\
    op_poll FUEL w1 = (w2, ODone None) /\ w_wire w2 = w_wire w1 /\ w_now w2 = w_now w /\
    has_retained (s_ob (w_sess w2)) (op_pid op) = false /\
    s_rt (w_sess w2) = s_rt (w_sess w) /\ ob_cap (s_ob (w_sess w2)) = ob_cap (s_ob (w_sess w)) /\
    Idle w2.
Proof.
  intros w topics ps s2 op Hi Hne Hval Hm Hid.
  destruct (subscribe_exchange w topics ps s2 op (idle_await w Hi) Hne Hval Hm)
    as [w1 [w2 [bs [cap [off [E1 [Hb [Hw1 [_ [E2 [W2 [N2 [Rt2 [Cp2 A2]]]]]]]]]]]]]].
  exists w1, w2, bs, cap, off. repeat (split; [assumption|]).
  split; [unfold has_retained; rewrite (cn_ret (aw_conn A2)); reflexivity|].
  split; [exact Rt2|]. split; [exact Cp2|exact (await_idle _ A2)].
Qed.

Theorem unsubscribe_exchange_idle : forall w topics ps s2 op,
  Idle w -> topics <> [] -> props_valid_for (PSlice ps) CtxUnsubscribe = true ->
  unsubscribe_middle (w_sess w) topics ps = (s2, MRetained op) -> op_pid op < 65536 ->
  exists w1 w2 bs cap off,
    op_unsubscribe FUEL topics ps w = (w1, ODone (Some op)) /\
    enc_unsubscribe cap {| uq_pid := op_pid op; uq_props := ps; uq_topics := topics |} = SOk off bs /\ w_wire w1 = w_wire w ++ bs /\
    op_poll FUEL w1 = (w2, ODone None) /\ w_wire w2 = w_wire w1 /\ w_now w2 = w_now w /\
    has_retained (s_ob (w_sess w2)) (op_pid op) = false /\
    s_rt (w_sess w2) = s_rt (w_sess w) /\ ob_cap (s_ob (w_sess w2)) = ob_cap (s_ob (w_sess w)) /\
    Idle w2.
Proof.
  intros w topics ps s2 op Hi Hne Hval Hm Hid.
  destruct (unsubscribe_exchange w topics ps s2 op (idle_await w Hi) Hne Hval Hm)
    as [w1 [w2 [bs [cap [off [E1 [Hb [Hw1 [_ [E2 [W2 [N2 [Rt2 [Cp2 A2]]]]]]]]]]]]]].
  exists w1, w2, bs, cap, off. repeat (split; [assumption|]).
  split; [unfold has_retained; rewrite (cn_ret (aw_conn A2)); reflexivity|].
  split; [exact Rt2|]. split; [exact Cp2|exact (await_idle _ A2)].
Qed.

Theorem qos2_exchange_idle : forall w r s2 op ps,
  Idle w ->
  publish_middle (w_sess w) true r = (s2, MRetained op) ->
  effective_qos (w_sess w) (pr_qos r) = Q2 -> pr_props r = PSlice ps -> op_pid op < 65536 ->
  exists w1 w2 w3 bs cap off,
    op_publish FUEL r w = (w1, ODone (Some op)) /\
    enc_publish cap (pub_request r Q2 (op_pid op)) = SOk off bs /\ w_wire w1 = w_wire w ++ bs /\
    op_poll FUEL w1 = (w2, ODone None) /\ w_wire w2 = w_wire w1 ++ rel_bytes (op_pid op) 0 /\
    op_poll FUEL w2 = (w3, ODone None) /\ w_wire w3 = w_wire w2 /\ w_now w3 = w_now w /\
    has_retained (s_ob (w_sess w3)) (op_pid op) = false /\ has_pending_release (s_ob (w_sess w3)) (op_pid op) = false /\
    rt_quota (s_rt (w_sess w3)) = N.min (N.min (rt_quota (s_rt (w_sess w)) - 1 + 1) 65535) (rt_maxquota (s_rt (w_sess w))) /\
    rt_maxquota (s_rt (w_sess w3)) = rt_maxquota (s_rt (w_sess w)) /\ rt_quota (s_rt (w_sess w)) <> 0 /\
    ob_cap (s_ob (w_sess w3)) = ob_cap (s_ob (w_sess w)) /\
    rt_maxqos (s_rt (w_sess w3)) = rt_maxqos (s_rt (w_sess w)) /\
    Idle w3.
Proof.
  intros w r s2 op ps Hi Hm Hq2 Hps Hid.
  destruct (qos2_exchange 6 w r s2 op ps (idle_await w Hi) ltac:(discriminate) Hm Hq2 Hps)
    as [w1 [w2 [w3 [bs [cap [off [E1 [Hb [Hw1 [E2 [Hw2 [E3 [W3 [N3 [S3 [Qu2 [Mq2 [Mqs2 [Rt1 [Cp3 A3]]]]]]]]]]]]]]]]]]]].
  destruct (publish_window _ _ _ _ Hi Hm) as [Rt2 [Hq0 _]].
  exists w1, w2, w3, bs, cap, off. repeat (split; [assumption|]).
  split; [unfold has_retained; rewrite (cn_ret (aw_conn A3)); reflexivity|]. split; [unfold has_pending_release; rewrite (cn_rel (aw_conn A3)); reflexivity|].
  rewrite S3. cbn [quota_inc rt_with_quota rt_quota rt_maxquota rt_maxqos]. rewrite Qu2, Mq2, Mqs2, Rt1, Rt2.
  repeat (split; [reflexivity|]). split; [exact Hq0|]. split; [exact Cp3|]. split; [reflexivity|exact (await_idle _ A3)].
Qed.

Lemma enqueue_accepted_idle : forall s kind enc,
  ob_ret (s_ob s) = [] -> rt_mps (s_rt s) = None ->
  (forall id, exists off bs, enc (ob_cap (s_ob s)) id = SOk off bs) ->
  exists s2 op, enqueue_middle s kind enc = (s2, MRetained op).
Proof.
  intros s kind enc Hret Hmps Henc. unfold enqueue_middle.
  assert (Hfull : retained_full (s_ob s) = false) by (unfold retained_full; rewrite Hret; reflexivity).
  rewrite Hfull.
  destruct (next_packet_id s) as [s1 id] eqn:En. rewrite (next_packet_id_set_pid _ _ _ En).
  destruct (Henc id) as [off [bs Hb]].
  rewrite (encode_at_empty (s_ob (set_pid s (s_pid s1))) (fun cap => enc cap id) off bs Hret Hb).
  cbn [set_pid set_ob s_rt]. rewrite Hmps. cbn [too_large]. unfold retain_packet. cbn [ob_ret].
  change (MAX_RETAINED <=? glen []) with false. cbv iota. eexists. eexists. reflexivity.
Qed.

Lemma enqueue_middle_pid_ok : forall s kind enc s2 op, Inv s -> enqueue_middle s kind enc = (s2, MRetained op) -> op_pid op < 65536.
Proof.
  intros s kind enc s2 op I H. destruct (enqueue_middle_retained _ _ _ _ _ H) as [s1 [_ [_ [_ [_ [En _]]]]]].
  destruct (next_packet_id_fresh s s1 _ (inv_ob _ I) (inv_pid _ I) En) as [[_ Hid] _]. lia.
Qed.

Inductive request :=
| ReqPublish (r : pub_req)
| ReqSubscribe (topics : list (bytes * sub_opts)) (ps : list prop)
| ReqUnsubscribe (topics : list bytes) (ps : list prop).

Definition request_ok (cap : N) (w : world) (q : request) : Prop :=
  match q with
  | ReqPublish r =>
      props_valid_for (pr_props r) CtxPublish = true /\ (exists ps, pr_props r = PSlice ps) /\
      effective_qos (w_sess w) (pr_qos r) <> Q0 /\
      (forall id, exists off bs, enc_publish cap (pub_request r (effective_qos (w_sess w) (pr_qos r)) id) = SOk off bs)
  | ReqSubscribe topics ps =>
      topics <> [] /\ props_valid_for (PSlice ps) CtxSubscribe = true /\
      (forall id, exists off bs, enc_subscribe cap {| sq_pid := id; sq_props := ps; sq_topics := topics |} = SOk off bs)
  | ReqUnsubscribe topics ps =>
      topics <> [] /\ props_valid_for (PSlice ps) CtxUnsubscribe = true /\
      (forall id, exists off bs, enc_unsubscribe cap {| uq_pid := id; uq_props := ps; uq_topics := topics |} = SOk off bs)
  end.

(* one complete exchange: the operation returns its handle, then poll() is called until the handle is complete (twice for QoS 2) *)
Inductive exchange : world -> request -> op -> world -> Prop :=
| ex_q1 : forall w r op w1 w2, effective_qos (w_sess w) (pr_qos r) = Q1 ->
    op_publish FUEL r w = (w1, ODone (Some op)) -> op_poll FUEL w1 = (w2, ODone None) -> exchange w (ReqPublish r) op w2
| ex_q2 : forall w r op w1 w2 w3, effective_qos (w_sess w) (pr_qos r) = Q2 ->
    op_publish FUEL r w = (w1, ODone (Some op)) -> op_poll FUEL w1 = (w2, ODone None) -> op_poll FUEL w2 = (w3, ODone None) ->
    exchange w (ReqPublish r) op w3
| ex_sub : forall w topics ps op w1 w2,
    op_subscribe FUEL topics ps w = (w1, ODone (Some op)) -> op_poll FUEL w1 = (w2, ODone None) -> exchange w (ReqSubscribe topics ps) op w2
| ex_unsub : forall w topics ps op w1 w2,
    op_unsubscribe FUEL topics ps w = (w1, ODone (Some op)) -> op_poll FUEL w1 = (w2, ODone None) -> exchange w (ReqUnsubscribe topics ps) op w2.

Fixpoint wanted_all (cap : N) (qs : list request) (w : world) : Prop :=
  match qs with
  | [] => True
  | q :: t => request_ok cap w q /\ forall op w2, exchange w q op w2 -> wanted_all cap t w2
  end.

Inductive history : world -> list request -> world -> Prop :=
| h_nil : forall w, history w [] w
| h_cons : forall w q qs op w2 w', exchange w q op w2 ->
    has_retained (s_ob (w_sess w2)) (op_pid op) = false -> has_pending_release (s_ob (w_sess w2)) (op_pid op) = false ->
    history w2 qs w' -> history w (q :: qs) w'.

Theorem exchange_idle : forall w q,
  IdleQ w -> request_ok (ob_cap (s_ob (w_sess w))) w q ->
  exists op w2, exchange w q op w2 /\
    has_retained (s_ob (w_sess w2)) (op_pid op) = false /\ has_pending_release (s_ob (w_sess w2)) (op_pid op) = false /\
    w_now w2 = w_now w /\ ob_cap (s_ob (w_sess w2)) = ob_cap (s_ob (w_sess w)) /\ IdleQ w2 /\
    rt_maxqos (s_rt (w_sess w2)) = rt_maxqos (s_rt (w_sess w)).
Proof.
  intros w q HI Hok. pose proof HI as [Hi [Hq1 [_ [_ Hcap]]]].
  pose proof Hi as [Hcw [Ec [El [Er _]]]]. pose proof Hcw as [_ [_ [I0 [Hmps _]]]].
  assert (Hrel_none : forall w2, Idle w2 -> forall pid, has_pending_release (s_ob (w_sess w2)) pid = false).
  { intros w2 [_ [_ [El2 _]]] pid. unfold has_pending_release. rewrite El2. reflexivity. }
  destruct q as [r|topics ps|topics ps]; cbn [request_ok] in Hok.
  - destruct Hok as [Hv [[ps Hps] [Hne Henc]]].
    assert (Hq0 : rt_quota (s_rt (w_sess w)) <> 0) by lia.
    destruct (publish_accepted_idle (w_sess w) r _ Er Hmps Hq0 Hcap Hv eq_refl Hne Henc) as [s2 [op Hm]].
    destruct (publish_window _ _ _ _ Hi Hm) as [_ [_ Hid]].
    destruct (effective_qos (w_sess w) (pr_qos r)) eqn:He; [contradiction| |].
    + destruct (qos1_exchange_idle w r s2 op ps Hi Hm He Hps Hid)
        as [w1 [w2 [bs [cap [off [E1 [_ [_ [E2 [_ [Hn2 [Hr2 [Hqu [Hmq [_ [Hc2 [Hmqs Hi2]]]]]]]]]]]]]]]]].
      rewrite (window_restored w HI) in Hqu.
      exists op, w2. split; [eapply ex_q1; eassumption|]. split; [exact Hr2|]. split; [apply Hrel_none; exact Hi2|].
      split; [exact Hn2|]. split; [exact Hc2|]. split; [exact (idleq_same_window w w2 HI Hi2 Hqu Hmq Hc2)|exact Hmqs].
    + destruct (qos2_exchange_idle w r s2 op ps Hi Hm He Hps Hid)
        as [w1 [w2 [w3 [bs [cap [off [E1 [_ [_ [E2 [_ [E3 [_ [Hn3 [Hr3 [Hp3 [Hqu [Hmq [_ [Hc3 [Hmqs Hi3]]]]]]]]]]]]]]]]]]]]].
      rewrite (window_restored w HI) in Hqu.
      exists op, w3. split; [eapply ex_q2; eassumption|]. split; [exact Hr3|]. split; [exact Hp3|].
      split; [exact Hn3|]. split; [exact Hc3|]. split; [exact (idleq_same_window w w3 HI Hi3 Hqu Hmq Hc3)|exact Hmqs].
  - destruct Hok as [Hne [Hv Henc]].
    destruct (enqueue_accepted_idle (w_sess w) 2 (fun cap id => enc_subscribe cap {| sq_pid := id; sq_props := ps; sq_topics := topics |}) Er Hmps Henc)
      as [s2 [op Hm]].
    pose proof (enqueue_middle_pid_ok _ _ _ _ _ (proj1 I0) Hm) as Hid.
    destruct (subscribe_exchange_idle w topics ps s2 op Hi Hne Hv Hm Hid)
      as [w1 [w2 [bs [cap [off [E1 [_ [_ [E2 [_ [Hn2 [Hr2 [Hrt [Hc2 Hi2]]]]]]]]]]]]]].
    exists op, w2. split; [eapply ex_sub; eassumption|]. split; [exact Hr2|]. split; [apply Hrel_none; exact Hi2|].
    split; [exact Hn2|]. split; [exact Hc2|]. rewrite Hrt. split; [|reflexivity].
    exact (idleq_same_window w w2 HI Hi2 (f_equal rt_quota Hrt) (f_equal rt_maxquota Hrt) Hc2).
  - destruct Hok as [Hne [Hv Henc]].
    destruct (enqueue_accepted_idle (w_sess w) 3 (fun cap id => enc_unsubscribe cap {| uq_pid := id; uq_props := ps; uq_topics := topics |}) Er Hmps Henc)
      as [s2 [op Hm]].
    pose proof (enqueue_middle_pid_ok _ _ _ _ _ (proj1 I0) Hm) as Hid.
    destruct (unsubscribe_exchange_idle w topics ps s2 op Hi Hne Hv Hm Hid)
      as [w1 [w2 [bs [cap [off [E1 [_ [_ [E2 [_ [Hn2 [Hr2 [Hrt [Hc2 Hi2]]]]]]]]]]]]]].
    exists op, w2. split; [eapply ex_unsub; eassumption|]. split; [exact Hr2|]. split; [apply Hrel_none; exact Hi2|].
    split; [exact Hn2|]. split; [exact Hc2|]. rewrite Hrt. split; [|reflexivity].
    exact (idleq_same_window w w2 HI Hi2 (f_equal rt_quota Hrt) (f_equal rt_maxquota Hrt) Hc2).
Qed.

(* every history of acknowledged operations, of any length and in any order, completes every one of them *)
Theorem history_completes : forall qs w,
  IdleQ w -> wanted_all (ob_cap (s_ob (w_sess w))) qs w ->
  exists w', history w qs w' /\ IdleQ w' /\ w_now w' = w_now w.
Proof.
  induction qs as [|q qs IH]; intros w HI HW.
  - exists w. split; [constructor|]. split; [exact HI|reflexivity].
  - cbn [wanted_all] in HW. destruct HW as [Hok Hnext].
    destruct (exchange_idle w q HI Hok) as [op [w2 [Hex [Hr [Hp [Hn [Hc [HI2 _]]]]]]]].
    specialize (Hnext op w2 Hex). rewrite <- Hc in Hnext.
    destruct (IH w2 HI2 Hnext) as [w' [Hh [HI' Hn']]].
    exists w'. split; [econstructor; eassumption|]. split; [exact HI'|]. rewrite Hn'. exact Hn.
Qed.

(* an exchange changes neither the configuration nor the broker's Maximum QoS, so a request is the same QoS for every session
   of the history *)
Lemma exchange_cfg : forall w q op w2, exchange w q op w2 -> s_cfg (w_sess w2) = s_cfg (w_sess w).
Proof.
  intros w q op w2 H. destruct H as [w r op w1 w2 _ E1 E2|w r op w1 w2 w3 _ E1 E2 E3|w t ps op w1 w2 E1 E2|w t ps op w1 w2 E1 E2].
  - pose proof (op_poll_cfg FUEL w1) as A. rewrite E2 in A. pose proof (op_publish_cfg FUEL r w) as B. rewrite E1 in B. cbn [fst] in A, B. congruence.
  - pose proof (op_poll_cfg FUEL w2) as A0. rewrite E3 in A0. pose proof (op_poll_cfg FUEL w1) as A. rewrite E2 in A.
    pose proof (op_publish_cfg FUEL r w) as B. rewrite E1 in B. cbn [fst] in A0, A, B. congruence.
  - pose proof (op_poll_cfg FUEL w1) as A. rewrite E2 in A. pose proof (op_subscribe_cfg FUEL t ps w) as B. rewrite E1 in B. cbn [fst] in A, B. congruence.
  - pose proof (op_poll_cfg FUEL w1) as A. rewrite E2 in A. pose proof (op_unsubscribe_cfg FUEL t ps w) as B. rewrite E1 in B. cbn [fst] in A, B. congruence.
Qed.

Lemma request_ok_same_view : forall cap w w' q,
  s_cfg (w_sess w') = s_cfg (w_sess w) -> rt_maxqos (s_rt (w_sess w')) = rt_maxqos (s_rt (w_sess w)) ->
  request_ok cap w q -> request_ok cap w' q.
Proof.
  intros cap w w' q Hc Hm H. destruct q as [r|t ps|t ps]; cbn [request_ok] in *; [|exact H|exact H].
  assert (E : forall x, effective_qos (w_sess w') x = effective_qos (w_sess w) x) by (intros x; unfold effective_qos; rewrite Hc, Hm; reflexivity).
  rewrite !E. exact H.
Qed.

(* the same with the requests judged once, against the initial session *)
Theorem history_completes_static : forall qs w,
  IdleQ w -> Forall (request_ok (ob_cap (s_ob (w_sess w))) w) qs ->
  exists w', history w qs w' /\ IdleQ w' /\ w_now w' = w_now w.
Proof.
  intros qs w HI HF.
  assert (G : forall qs w0, IdleQ w0 ->
               s_cfg (w_sess w0) = s_cfg (w_sess w) -> rt_maxqos (s_rt (w_sess w0)) = rt_maxqos (s_rt (w_sess w)) ->
               ob_cap (s_ob (w_sess w0)) = ob_cap (s_ob (w_sess w)) ->
               Forall (request_ok (ob_cap (s_ob (w_sess w))) w) qs ->
               exists w', history w0 qs w' /\ IdleQ w' /\ w_now w' = w_now w0).
  { clear qs HF. induction qs as [|q qs IH]; intros w0 HI0 Hc Hm Hcap HF.
    - exists w0. split; [constructor|]. split; [exact HI0|reflexivity].
    - inversion HF as [|? ? Hq HF']; subst.
      assert (Hok : request_ok (ob_cap (s_ob (w_sess w0))) w0 q) by (rewrite Hcap; eapply request_ok_same_view; eassumption).
      destruct (exchange_idle w0 q HI0 Hok) as [op [w2 [Hex [Hr [Hp [Hn [Hc2 [HI2 Hm2]]]]]]]].
      destruct (IH w2 HI2) as [w' [Hh [HI' Hn']]].
      + rewrite (exchange_cfg _ _ _ _ Hex). exact Hc.
      + rewrite Hm2. exact Hm.
      + rewrite Hc2. exact Hcap.
      + exact HF'.
      + exists w'. split; [econstructor; eassumption|]. split; [exact HI'|]. rewrite Hn'. exact Hn. }
  exact (G qs w HI eq_refl eq_refl eq_refl HF).
Qed.

Lemma exchange_sub_inv : forall w topics ps op w2, exchange w (ReqSubscribe topics ps) op w2 ->
  exists w1, op_subscribe FUEL topics ps w = (w1, ODone (Some op)) /\ op_poll FUEL w1 = (w2, ODone None).
Proof. intros w topics ps op w2 H. inversion H; subst. eexists. split; eassumption. Qed.

Definition ex_req_sub : request := ReqSubscribe [(ex_filter, ex_so1)] [].
Definition ex_req_q2 : request := ReqPublish ex_pubq2.
Definition ex_s1 : world := fst (op_poll FUEL (fst (op_subscribe FUEL [(ex_filter, ex_so1)] [] ex_b1))).

Lemma ex_requests_ok : forall w, rt_maxqos (s_rt (w_sess w)) = None ->
  request_ok 128 w ex_req_sub /\ request_ok 128 w ex_req_q2 /\ request_ok 128 w (ReqPublish ex_pub) /\
  request_ok 128 w (ReqUnsubscribe [ex_filter] []).
Proof.
  intros w Hm.
  assert (E : forall x, effective_qos (w_sess w) x = x) by (intros x; unfold effective_qos; rewrite Hm; reflexivity).
  cbn [ex_req_sub ex_req_q2 request_ok]. rewrite !E.
  repeat split; try discriminate; try (vm_compute; reflexivity); try (exists []; reflexivity);
    intros id; eexists; eexists; vm_compute; reflexivity.
Qed.

Example mixed_history_hyps_met :
  IdleQ ex_b1 /\ wanted_all (ob_cap (s_ob (w_sess ex_b1))) [ex_req_sub; ex_req_q2] ex_b1.
Proof.
  split; [exact ex_b1_idleq|]. rewrite ex_b1_cap.
  assert (M1 : rt_maxqos (s_rt (w_sess ex_b1)) = None) by (vm_compute; reflexivity).
  assert (M2 : rt_maxqos (s_rt (w_sess ex_s1)) = None) by (vm_compute; reflexivity).
  cbn [wanted_all]. split; [exact (proj1 (ex_requests_ok ex_b1 M1))|].
  intros op w2 H. destruct (exchange_sub_inv _ _ _ _ _ H) as [w1 [H1 H2]].
  assert (W1 : w1 = fst (op_subscribe FUEL [(ex_filter, ex_so1)] [] ex_b1)) by exact (eq_sym (f_equal fst H1)).
  assert (W2 : w2 = fst (op_poll FUEL w1)) by exact (eq_sym (f_equal fst H2)).
  assert (W3 : w2 = ex_s1) by (unfold ex_s1; exact (eq_trans W2 (f_equal (fun x => fst (op_poll FUEL x)) W1))).
  clear H H1 H2 W1 W2. subst w2.
  split; [exact (proj1 (proj2 (ex_requests_ok ex_s1 M2)))|intros; exact I].
Qed.

(* the static form needs no intermediate worlds: all four kinds of request, judged against the fresh connection *)
Example static_history_hyps_met :
  IdleQ ex_b1 /\
  Forall (request_ok (ob_cap (s_ob (w_sess ex_b1))) ex_b1) [ex_req_sub; ex_req_q2; ReqPublish ex_pub; ReqUnsubscribe [ex_filter] []; ex_req_q2].
Proof.
  split; [exact ex_b1_idleq|]. rewrite ex_b1_cap.
  assert (M1 : rt_maxqos (s_rt (w_sess ex_b1)) = None) by (vm_compute; reflexivity).
  destruct (ex_requests_ok ex_b1 M1) as [R1 [R2 [R3 R4]]].
  exact (Forall_cons _ R1 (Forall_cons _ R2 (Forall_cons _ R3 (Forall_cons _ R4 (Forall_cons _ R2 (Forall_nil _)))))).
Qed.

Theorem inbound_qos0_idle : forall w h rl body t topic r dp props payload,
  Hc w ->
  ob_ctl (s_ob (w_sess w)) = [] -> ob_rel (s_ob (w_sess w)) = [] -> ob_ret (s_ob (w_sess w)) = [] ->
  rt_ka_ms (s_rt (w_sess w)) = 0 -> rt_next_ping (s_rt (w_sess w)) = None -> rt_ping_timeout (s_rt (w_sess w)) = None ->
  w_broker w = 1 -> w_txbuf w = [] -> w_last_arrival w <= w_now w ->
  rdata (rd w) = [] -> rplen (rd w) = None -> 6 <= rcap (rd w) ->
  varint_write (lenN body) = Some rl ->
  let pkt := h :: rl ++ body in
  w_inq w = [(t, pkt)] -> t <= w_now w -> lenN pkt <= rcap (rd w) -> lenN pkt <= 29000 ->
  from_buffer pkt = Some (RPublish topic None Q0 r dp props payload) ->
  exists w', op_poll FUEL w = (w', ODone (Some (RPublish topic None Q0 r dp props payload))) /\
    w_wire w' = w_wire w /\ w_now w' = w_now w /\ s_rt (w_sess w') = s_rt (w_sess w) /\ s_ob (w_sess w') = s_ob (w_sess w) /\
    Idle w'.
Proof.
  intros w h rl body t topic r dp props payload Hcw Ec El Er Hka Hnp Hpt Hbr Htx Hla Hrd Hrp Hcap Hrl pkt Hi Ht Hfit H29 Hdec.
  pose proof Hcw as [_ [_ [_ [Hmps [_ [HB _]]]]]].
  destruct (poll_answer (rcap (rd w)) w [] [] t h rl body _ _ true
              (await_intro (conn_intro Hcw Ec El Er Hka Hnp Hpt Hbr Htx Hi Hla) (room_intro _ Hrd Hrp (N.le_refl _)))
              Ht (quiescent_no_step _ Ec El Er) Hrl Hfit H29 Hdec eq_refl Ec El Er HB Hmps) as [w' [E [S' [W' [N' A']]]]].
  exists w'. rewrite S'. repeat (split; [assumption || reflexivity|]). exact (await_idle _ (await_le _ _ _ _ _ _ Hcap A')).
Qed.
