(* PollReads.v — liveness of poll() towards the broker's traffic (C16): on a behaving transport, with nothing left to
   write and no timer pending, poll() on a world where one whole packet has arrived behaves exactly like poll() on the
   world in which that packet already sits, complete, in the reader: the wait loop reads precisely that packet. *)
From Coq Require Import List NArith.
From Minimq Require Import Bytes Varint Reader Arena Core Machine.
From Minimq Require Import Util Io Behaving ConnectOk Framing PingQuiet.
Import ListNotations.
Open Scope N_scope.

Theorem wait_reads_arrived : forall f w h rl body t,
  varint_write (lenN body) = Some rl ->
  let pkt := h :: rl ++ body in
  lenN pkt <= rcap (rd w) -> (N.to_nat (lenN pkt) + 2 <= f)%nat -> lenN pkt <= BIG ->
  w_live w = true -> rdata (rd w) = [] -> rplen (rd w) = None ->
  next_step (s_ob (w_sess w)) = None ->
  ping_timed_out (w_sess w) (w_now w) = false -> should_queue_pingreq (w_sess w) (w_now w) = false ->
  w_script w = [] -> w_inq w = [(t, pkt)] -> t <= w_now w ->
  exists w3, wait_for_progress (S f) w = wait_for_progress f w3 /\
    rdata (rd w3) = pkt /\ rplen (rd w3) = Some (lenN pkt) /\ rcap (rd w3) = rcap (rd w) /\
    w_sess w3 = set_reader (w_sess w) (rd w3) /\ w_inq w3 = [] /\ w_script w3 = [] /\ w_now w3 = w_now w /\
    reads_to w w3.
Proof.
  intros f w h rl body t Hrl pkt Hcap Hf HB Hl Hd Hp Hn Hto Hq Hs Hi Ht.
  assert (Hna : packet_available (rd w) = false) by (unfold packet_available; now rewrite Hp).
  cbn [wait_for_progress]. unfold drive_packet. rewrite Hl. cbn [negb drive_loop].
  unfold process_received. fold (rd w). rewrite Hna. cbn [negb].
  unfold service, maybe_queue_pingreq. rewrite Hto, Hq, upd_sess_id, Hn. cbn [orb]. rewrite Hn, Hl. cbn [negb].
  destruct (fill_arrived h rl body Hrl (next_deadline (s_rt (w_sess w))) (N.to_nat (lenN pkt)) (S f) w 0 t
              (holds_empty h rl body (rd w) Hd Hp Hcap) ltac:(rewrite N2Nat.id; apply N.le_sub_l) (le_S _ _ Hf) Hs HB) as [w3 [E3 R3]]; fold pkt.
  { intros _. rewrite dropN_0. split; assumption. }
  { intros E. now apply eq_sym, lenN_zero_nil in E. }
  pose proof (fill_reads (S f) (next_deadline (s_rt (w_sess w))) w) as Hr. rewrite E3 in Hr |- *.
  exists w3. split; [reflexivity|tauto].
Qed.

Theorem wait_reads_arrived_packet : forall f w h rl body t,
  varint_write (lenN body) = Some rl ->
  let pkt := h :: rl ++ body in
  lenN pkt <= rcap (rd w) -> (N.to_nat (lenN pkt) + 2 <= f)%nat -> lenN pkt <= BIG ->
  w_live w = true -> rdata (rd w) = [] -> rplen (rd w) = None ->
  next_step (s_ob (w_sess w)) = None ->
  (forall d, rt_next_ping (s_rt (w_sess w)) = Some d -> w_now w < d) -> rt_ping_timeout (s_rt (w_sess w)) = None ->
  w_script w = [] -> w_inq w = [(t, pkt)] -> t <= w_now w ->
  exists w3, wait_for_progress (S f) w = wait_for_progress f w3 /\
    rdata (rd w3) = pkt /\ rplen (rd w3) = Some (lenN pkt) /\ rcap (rd w3) = rcap (rd w) /\
    w_sess w3 = set_reader (w_sess w) (rd w3) /\ w_inq w3 = [] /\ w_script w3 = [] /\ w_now w3 = w_now w /\ w_live w3 = true.
Proof.
  intros f w h rl body t Hrl pkt Hcap Hf HB Hl Hd Hp Hn Hnp Hpt Hs Hi Ht.
  destruct (wait_reads_arrived f w h rl body t Hrl Hcap Hf HB Hl Hd Hp Hn) as [w3 [E [A1 [A2 [A3 [A4 [A5 [A6 [A7 [[F _] _]]]]]]]]]];
    try assumption.
  - unfold ping_timed_out. now rewrite Hpt.
  - now apply not_due_quiet.
  - exists w3. pose proof (fr_live _ _ F) as Lv. cbn [w_live upd_sess] in Lv. rewrite Hl in Lv. tauto.
Qed.
