(* Shapes.v — the errors the synchronous blocks of the engine can end in, by class: `size_err` is what a block refuses
   locally (an encoder that runs out of room, a packet above the broker's limit).  With them `prepare_step_inv`, the one
   inversion of `prepare_step`, and the runtime a completed flush leaves. *)
From Coq Require Import List NArith.
From Minimq Require Import Bytes Ser Arena Core Effects PacketShape.
Import ListNotations.
Local Open Scope N_scope.

Definition size_err (e : err) : Prop := e = EPacketTooLarge \/ exists se, e = err_of_serr se.

Lemma check_control_size_err : forall mps a e, check_control_size mps a = Some e -> size_err e.
Proof.
  intros mps a e H. unfold check_control_size in H. destruct (encode_control_packet a) as [n b|se].
  - destruct (too_large mps (lenN b)); inversion H. now left.
  - inversion H. right. now exists se.
Qed.

Lemma check_pubrel_size_err : forall mps pid rc e, check_pubrel_size mps pid rc = Some e -> size_err e.
Proof.
  intros mps pid rc e H. unfold check_pubrel_size in H. destruct (encode_pubrel pid rc) as [n b|se].
  - destruct (too_large mps (lenN b)); inversion H. now left.
  - inversion H. right. now exists se.
Qed.

Lemma prepare_step_inv : forall s st,
  match prepare_step s st with
  | PWrite p bs written len =>
      too_large (rt_mps (s_rt s)) len = false /\
      match st with
      | StCtl a s0 => s0 = SWrite written /\ p = FCtl a /\ len = lenN bs /\ exists off, encode_control_packet a = SOk off bs
      | StRel pid rc s0 => s0 = SWrite written /\ p = FRel pid /\ len = lenN bs /\ exists off, encode_pubrel pid rc = SOk off bs
      | StRet pid off l s0 => s0 = SWrite written /\ p = FRet pid /\ len = l /\ bs = retained_packet (s_ob s) off l
      end
  | PFlush p =>
      match st with
      | StCtl a s0 => s0 = SFlush /\ p = FCtl a
      | StRel pid _ s0 => s0 = SFlush /\ p = FRel pid
      | StRet pid _ _ s0 => s0 = SFlush /\ p = FRet pid
      end
  | PDone => match st with StCtl _ s0 | StRel _ _ s0 | StRet _ _ _ s0 => s0 = SSent end
  | PErr e => size_err e
  end.
Proof.
  intros s st. destruct st as [a [w| |]|pid rc [w| |]|pid off len [w| |]]; cbn [prepare_step]; try (split; reflexivity); try reflexivity.
  - destruct (encode_control_packet a) as [off b|se]; [destruct (too_large _ _) eqn:T|]; [now left| |right; now exists se].
    repeat split; [exact T|now exists off].
  - destruct (encode_pubrel pid rc) as [off b|se]; [destruct (too_large _ _) eqn:T|]; [now left| |right; now exists se].
    repeat split; [exact T|now exists off].
  - destruct (too_large _ _) eqn:T; [now left|]. repeat split. exact T.
Qed.

Lemma prepare_step_err : forall s st e, prepare_step s st = PErr e -> size_err e.
Proof. intros s st e H. pose proof (prepare_step_inv s st) as P. now rewrite H in P. Qed.

Lemma queue_ctl_checked_err : forall s a d e, snd (queue_ctl_checked s a d) = HErr e -> e = EInflightExhausted \/ size_err e.
Proof.
  intros s a d e H. destruct (queue_ctl_checked_spec s a d) as [[o [_ [_ E]]]|[e' [E [Hc|[-> _]]]]]; rewrite E in H; inversion H; subst.
  - right. eapply check_control_size_err; eassumption.
  - now left.
Qed.

Lemma maybe_queue_pingreq_err : forall s now e, snd (maybe_queue_pingreq s now) = Some e -> e = EInflightExhausted \/ size_err e.
Proof.
  intros s now e H. unfold maybe_queue_pingreq in H. destruct (should_queue_pingreq s now); [|discriminate].
  destruct (check_control_size _ _) as [e0|] eqn:Ec.
  - inversion H; subst. right. eapply check_control_size_err; exact Ec.
  - destruct (queue_control _ _); inversion H. now left.
Qed.

Definition flush_armed (r : runtime) (p : fpkt) (now : N) : runtime :=
  match p with FCtl CPing => rt_with_timers r (rt_next_ping r) (Some (now + ROUND_TRIP_TIMEOUT_MS)) | _ => r end.

Lemma complete_flush_shape : forall s p now, exists o,
  fst (complete_flush s p now) = set_rt (set_ob s o) (note_outbound_activity (flush_armed (s_rt s) p now) now).
Proof.
  intros. unfold complete_flush, flush_armed.
  destruct p as [a|pid|pid]; [destruct (flush_control _ _) as [o b]|destruct (flush_release _ _) as [o b]
                             |destruct (flush_retained _ _) as [o b]]; now exists o.
Qed.

Lemma handle_packet_err : forall s p e, snd (handle_packet s p) = HErr e ->
  e = EInvalidPacket \/ e = EDisconnected \/ (exists c, e = ERejected c) \/ e = EInflightExhausted \/ size_err e.
Proof.
  intros s p e.
  assert (Q : forall s0 a d, snd (queue_ctl_checked s0 a d) = HErr e ->
            e = EInvalidPacket \/ e = EDisconnected \/ (exists c, e = ERejected c) \/ e = EInflightExhausted \/ size_err e).
  { intros s0 a d H. destruct (queue_ctl_checked_err _ _ _ _ H); auto. }
  assert (K : forall x : err, HErr x = HErr e -> x = e) by (intros x H; now inversion H).
  destruct p as [sp rc props|t pid q r d ps pl|pid rc|pid rc|pid rc|pid rc|pid props codes|pid props codes|rc props| ];
    try (cbn [handle_packet snd]; discriminate); try (cbn [handle_packet snd]; intros H; apply K in H; subst; auto; fail).
  - destruct q; [discriminate| |]; (destruct pid as [id|]; [|cbn [handle_packet snd]; intros H; apply K in H; subst; auto]).
    + cbn [handle_packet]. apply Q.
    + destruct (handle_q2_shape s t id r d ps pl) as [a [dl [E|[E _]]]]; cbv zeta in E; rewrite E; apply Q.
  - cbn [handle_packet]. destruct (ack_packet _ _) as [o f]. destruct (negb f); [discriminate|]. destruct (rc_success rc); cbn [snd]; [discriminate|].
    intros H; apply K in H; subst. right. right. left. now exists rc.
  - cbn [handle_packet]. destruct (ack_packet _ _) as [o f]. destruct f.
    + destruct (negb (rc_success rc)); cbn [snd]; [intros H; apply K in H; subst; right; right; left; now exists rc|].
      destruct (check_pubrel_size _ _ _) as [e0|] eqn:Ec; cbn [snd].
      * intros H; apply K in H; subst. right. right. right. right. eapply check_pubrel_size_err; exact Ec.
      * destruct (queue_release _ _ _); cbn [snd]; [discriminate|]. intros H; apply K in H; subst; auto.
    + destruct (has_pending_release _ _); [destruct (rc_success rc)|]; cbn [snd]; try discriminate.
      intros H; apply K in H; subst. right. right. left. now exists rc.
  - cbn [handle_packet]. destruct (swap_remove_id pid (s_srv s)); apply Q.
  - cbn [handle_packet]. destruct (ack_release _ _) as [o f]. destruct (negb f); [discriminate|]. destruct (rc_success rc); cbn [snd]; [discriminate|].
    intros H; apply K in H; subst. right. right. left. now exists rc.
  - cbn [handle_packet]. destruct (ack_packet _ _) as [o f]. destruct (negb f); [discriminate|].
    destruct (all_success codes) as [c|]; cbn [snd]; [|discriminate]. intros H; apply K in H; subst. right. right. left. now exists c.
  - cbn [handle_packet]. destruct (ack_packet _ _) as [o f]. destruct (negb f); [discriminate|].
    destruct (all_success codes) as [c|]; cbn [snd]; [|discriminate]. intros H; apply K in H; subst. right. right. left. now exists c.
Qed.
