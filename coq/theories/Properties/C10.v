(* C10 — keep-alive: PINGREQ cadence and dead-peer detection follow the negotiated time.  Statements only.
   Times are virtual milliseconds; K = rt_ka_ms is the effective keep-alive (Server Keep Alive if the CONNACK
   carried one, else the configured value: C09).  The theorems characterise every function the machine calls on
   its timers and, for a wait in poll() on a behaving transport, the instants at which the model calls them; the
   implementation's instants are checked by the correspondence run and the timing monitor (lib/monitors.py mon_c10). *)
From Coq Require Import List NArith.
From Minimq Require Import Bytes Varint Utf8 Props Ser De Reader Arena Core Show Machine Run.
From Minimq Require Import Lts KeepAlive KeepAliveReach.
Import ListNotations.
Open Scope N_scope.

(* every completed outbound packet (and the CONNACK) schedules the next PINGREQ at  now + K - min(5 s, K/2),
   which is never later than K after the completion *)
Theorem C10_next_ping_within_keepalive : forall r now, 0 < rt_ka_ms r ->
  exists d, rt_next_ping (note_outbound_activity r now) = Some d /\ now <= d /\ d <= now + rt_ka_ms r
            /\ d + ka_lead (rt_ka_ms r) = now + rt_ka_ms r.
Proof. exact activity_deadline. Qed.

(* the PINGREQ is queued at the first service at or after that instant (ties included) unless one is outstanding … *)
Theorem C10_ping_when_due : forall s now d, rt_next_ping (s_rt s) = Some d -> d <= now ->
  rt_ping_timeout (s_rt s) = None -> has_pending_pingreq (s_ob s) = false -> should_queue_pingreq s now = true.
Proof. exact ping_when_due. Qed.

(* … and never before it, never twice *)
Theorem C10_ping_only_when_due : forall s now, should_queue_pingreq s now = true ->
  (exists d, rt_next_ping (s_rt s) = Some d /\ d <= now) /\ rt_ping_timeout (s_rt s) = None
  /\ has_pending_pingreq (s_ob s) = false.
Proof. exact ping_only_when_due. Qed.

(* the wait sleeps until the earlier of the two instants *)
Theorem C10_deadline_is_earliest : forall r d, next_deadline r = Some d ->
  (forall x, rt_next_ping r = Some x -> d <= x) /\ (forall x, rt_ping_timeout r = Some x -> d <= x) /\
  (rt_next_ping r = Some d \/ rt_ping_timeout r = Some d).
Proof. exact deadline_is_earliest. Qed.

(* keep-alive zero: in every reachable world nothing is scheduled and nothing is queued *)
Theorem C10_zero_sends_no_ping : forall c now,
  rt_ka_ms (s_rt (w_sess (run_case c))) = 0 ->
  maybe_queue_pingreq (w_sess (run_case c)) now = (w_sess (run_case c), None) /\
  rt_next_ping (s_rt (w_sess (run_case c))) = None.
Proof. exact reachable_ka0_no_ping. Qed.

(* the timeout is armed by the flush of a PINGREQ, 5 s after it, and by nothing else *)
Theorem C10_pingreq_flush_arms : forall s now,
  rt_ping_timeout (s_rt (fst (complete_flush s (FCtl CPing) now))) = Some (now + ROUND_TRIP_TIMEOUT_MS).
Proof. exact pingreq_flush_arms. Qed.
Theorem C10_other_flush_keeps_timeout : forall s p now, p <> FCtl CPing ->
  rt_ping_timeout (s_rt (fst (complete_flush s p now))) = rt_ping_timeout (s_rt s).
Proof. exact other_flush_keeps_timeout. Qed.
Theorem C10_packets_never_arm : forall s p d,
  rt_ping_timeout (s_rt (fst (handle_packet s p))) = Some d -> rt_ping_timeout (s_rt s) = Some d.
Proof. exact handle_packet_timeout. Qed.

(* disconnect at the bound, not a millisecond earlier *)
Theorem C10_no_timeout_before_bound : forall s tp now, now < tp + ROUND_TRIP_TIMEOUT_MS ->
  ping_timed_out (fst (complete_flush s (FCtl CPing) tp)) now = false.
Proof. exact no_timeout_before_bound. Qed.
Theorem C10_timeout_at_bound : forall s tp now, tp + ROUND_TRIP_TIMEOUT_MS <= now ->
  ping_timed_out (fst (complete_flush s (FCtl CPing) tp)) now = true.
Proof. exact timeout_at_bound. Qed.
Theorem C10_service_disconnects : forall now w,
  ping_timed_out (w_sess w) now = true -> snd (service now w) = OFail EDisconnected.
Proof. exact service_disconnects_iff_timed_out. Qed.

(* a PINGRESP handled before the check clears the timeout for good *)
Theorem C10_pingresp_clears : forall s now,
  rt_ping_timeout (s_rt (fst (handle_packet s RPingResp))) = None /\
  ping_timed_out (fst (handle_packet s RPingResp)) now = false /\
  snd (handle_packet s RPingResp) = HOk false.
Proof. exact pingresp_clears. Qed.

(* K >= 10 s: by the time the next PINGREQ is due the outstanding one is answered or timed out *)
Theorem C10_long_keepalive_never_blocked : forall s tp d,
  2 * ROUND_TRIP_TIMEOUT_MS <= rt_ka_ms (s_rt s) ->
  rt_next_ping (s_rt (fst (complete_flush s (FCtl CPing) tp))) = Some d ->
  tp + ROUND_TRIP_TIMEOUT_MS <= d /\ d <= tp + rt_ka_ms (s_rt s).
Proof. exact long_keepalive_never_blocked. Qed.

(* refuted for K < 5 s (known finding K10): with K = 1 s a client whose PINGREQ completed at t = 1000 neither
   sends nor times out before t = 6000 *)
Theorem C10_gap_refuted_small_keepalive :
  rt_ka_ms (s_rt k10_session) = 1000 /\
  forall now, 1000 <= now -> now < 6000 ->
    should_queue_pingreq k10_session now = false /\ ping_timed_out k10_session now = false
    /\ next_step (s_ob k10_session) = None.
Proof. exact keepalive_gap_refuted_small_k. Qed.

From Minimq Require Import Machine Run WireInv Wire PingQuiet Healthy Owed Framing PingAt.

(* ---- the instants, at the level of the machine (virtual clock) ----
   While the application waits in poll() on a behaving transport with nothing to send and nothing arriving, the wait sleeps
   exactly until the PINGREQ deadline `d` (= last outbound activity + K - min(5 s, K/2) <= last activity + K), and AT `d`
   the PINGREQ is queued, written and flushed (nothing else reaches the wire), the round-trip timer is armed for d + 5 s,
   and no further PINGREQ is due. *)
Theorem C10_poll_pings_at_deadline : forall w d,
  Hc w -> rdata (rd w) = [] -> rplen (rd w) = None -> 1 <= rcap (rd w) ->
  next_step (s_ob (w_sess w)) = None ->
  rt_next_ping (s_rt (w_sess w)) = Some d -> w_now w < d -> rt_ping_timeout (s_rt (w_sess w)) = None ->
  w_inq w = [] -> w_waits w < MAX_WAITS ->
  exists w', op_poll FUEL w = (w', ODone None) /\ w_now w' = d /\ w_wire w' = w_wire w ++ [192; 0] /\
    rt_ping_timeout (s_rt (w_sess w')) = Some (d + ROUND_TRIP_TIMEOUT_MS) /\
    PQ w' /\ next_step (s_ob (w_sess w')) = None.
Proof. exact poll_pings_at_deadline. Qed.

(* An unanswered PINGREQ: the wait ends with the disconnected error exactly when the round-trip bound expires - not
   earlier (the clock reads `t`), not later - the handle is dead and nothing more was written. *)
Theorem C10_poll_times_out_at_bound : forall w t,
  Hc w -> rdata (rd w) = [] -> rplen (rd w) = None -> 1 <= rcap (rd w) ->
  next_step (s_ob (w_sess w)) = None ->
  rt_ping_timeout (s_rt (w_sess w)) = Some t -> w_now w < t ->
  (forall d, rt_next_ping (s_rt (w_sess w)) = Some d -> t <= d) ->
  w_inq w = [] -> w_waits w < MAX_WAITS ->
  exists w', op_poll FUEL w = (w', OFail EDisconnected) /\ w_now w' = t /\ w_live w' = false /\ w_wire w' = w_wire w.
Proof. exact poll_times_out_at_bound. Qed.

(* computed: keep-alive 30 s, a broker that stays silent after CONNACK: PINGREQ at 25 s, disconnected at 30 s *)
Theorem C10_ping_example :
  w_now ex_ka = 0 /\ rt_next_ping (s_rt (w_sess ex_ka)) = Some 25000 /\
  snd (op_poll FUEL ex_ka) = ODone None /\ w_now ex_ka2 = 25000 /\ w_wire ex_ka2 = w_wire ex_ka ++ [192; 0] /\
  rt_ping_timeout (s_rt (w_sess ex_ka2)) = Some 30000 /\ rt_next_ping (s_rt (w_sess ex_ka2)) = Some 50000 /\
  snd (op_poll FUEL ex_ka2) = OFail EDisconnected /\ w_now (fst (op_poll FUEL ex_ka2)) = 30000 /\
  w_live (fst (op_poll FUEL ex_ka2)) = false.
Proof. exact ping_example. Qed.

Theorem C10_ping_hyps_met :
  Hc ex_ka /\ rdata (rd ex_ka) = [] /\ rplen (rd ex_ka) = None /\ 1 <= rcap (rd ex_ka) /\
  next_step (s_ob (w_sess ex_ka)) = None /\ rt_next_ping (s_rt (w_sess ex_ka)) = Some 25000 /\ w_now ex_ka < 25000 /\
  rt_ping_timeout (s_rt (w_sess ex_ka)) = None /\ w_inq ex_ka = [] /\ w_waits ex_ka < MAX_WAITS.
Proof. exact ping_hyps_met. Qed.


(* A PINGRESP received in time never leads to a disconnect: poll() reads it, clears the round-trip timer, writes nothing, and
   the connection stays alive with the next PINGREQ scheduled as before. *)
Theorem C10_pingresp_in_time_keeps_connection : forall w t t0,
  2 <= rcap (rd w) -> w_live w = true -> rdata (rd w) = [] -> rplen (rd w) = None ->
  next_step (s_ob (w_sess w)) = None ->
  rt_ping_timeout (s_rt (w_sess w)) = Some t0 -> w_now w < t0 ->
  (forall d, rt_next_ping (s_rt (w_sess w)) = Some d -> w_now w < d) ->
  w_script w = [] -> w_inq w = [(t, [208; 0])] -> t <= w_now w ->
  exists w', op_poll FUEL w = (w', ODone None) /\ w_live w' = true /\ w_now w' = w_now w /\ w_wire w' = w_wire w /\
    rt_ping_timeout (s_rt (w_sess w')) = None /\ rt_next_ping (s_rt (w_sess w')) = rt_next_ping (s_rt (w_sess w)) /\
    s_ob (w_sess w') = s_ob (w_sess w).
Proof. exact poll_pingresp_clears. Qed.

Theorem C10_pingresp_example :
  snd (op_poll FUEL ex_kb) = ODone None /\ w_now ex_kb2 = 25000 /\ w_inq ex_kb2 = [(25000, [208; 0])] /\
  rt_ping_timeout (s_rt (w_sess ex_kb2)) = Some 30000 /\
  snd (op_poll FUEL ex_kb2) = ODone None /\ rt_ping_timeout (s_rt (w_sess (fst (op_poll FUEL ex_kb2)))) = None /\
  w_live (fst (op_poll FUEL ex_kb2)) = true /\ w_now (fst (op_poll FUEL ex_kb2)) = 25000.
Proof. exact pingresp_example. Qed.

Print Assumptions C10_next_ping_within_keepalive.
Print Assumptions C10_ping_when_due.
Print Assumptions C10_ping_only_when_due.
Print Assumptions C10_deadline_is_earliest.
Print Assumptions C10_zero_sends_no_ping.
Print Assumptions C10_pingreq_flush_arms.
Print Assumptions C10_other_flush_keeps_timeout.
Print Assumptions C10_packets_never_arm.
Print Assumptions C10_no_timeout_before_bound.
Print Assumptions C10_timeout_at_bound.
Print Assumptions C10_service_disconnects.
Print Assumptions C10_pingresp_clears.
Print Assumptions C10_long_keepalive_never_blocked.
Print Assumptions C10_gap_refuted_small_keepalive.
Print Assumptions C10_poll_pings_at_deadline.
Print Assumptions C10_poll_times_out_at_bound.
Print Assumptions C10_ping_example.
Print Assumptions C10_ping_hyps_met.
Print Assumptions C10_pingresp_in_time_keeps_connection.
Print Assumptions C10_pingresp_example.
