(* C16 — with a responsive broker every accepted operation completes; the session quiesces.  Statements only.
   Step-level facts about the engine (all states): poll()/recv() never return "idle"; an entry already sent on this
   connection is never picked again; a write step moves the recorded offset strictly forward or completes the entry,
   a completed entry is flushed next, a flushed acknowledgement leaves its queue.  The machine's engine loops
   (drive(), and the flush loop inside publish / subscribe / unsubscribe) end without exhausting their fuel on EVERY
   transport — no packet is written for ever or twice — within work + 5 engine steps (C16_drive_loop_terminates,
   C16_flush_outbound_terminates, C16_op_drive_terminates).  On a behaving transport answered by
   the broker they add up: drive() sends all that is queued, one poll() takes an arrived packet, every acknowledged
   operation completes and leaves the connection idle, in histories of any length.  Quiescence from EVERY reachable
   state within a bounded number of polls and I/O calls is checked on the implementation and the model by the drain
   suites (any generated history, then: transport healed, broker answering everything, reconnect, 40 polls) with an
   I/O watchdog. *)
From Coq Require Import List NArith.
From Minimq Require Import Bytes Varint Utf8 Props Ser De Reader Arena Core Machine.
From Minimq Require Import Status Progress WireInv Wire Measure Wire Terminate Run.
From Minimq Require Import Varint De ArenaOps ConnectOk ReaderInv Framing FillWhole PollReads Liveness PingQuiet Healthy.
Import ListNotations.
Open Scope N_scope.

Theorem C16_poll_never_returns_idle : forall fuel w w' p, wait_for_progress fuel w = (w', ODone p) -> p <> PrIdle.
Proof. exact wait_never_returns_idle. Qed.

Theorem C16_sent_entries_not_resent : forall o st, next_step o = Some st -> step_state st <> SSent.
Proof. exact next_step_not_sent. Qed.

Theorem C16_write_step_advances : forall w n len, 1 <= n ->
  set_written_state (w + n) len = SFlush \/ (set_written_state (w + n) len = SWrite (w + n) /\ w < w + n /\ w + n < len).
Proof. exact written_advances. Qed.

Theorem C16_complete_entry_is_flushed_next : forall s a w,
  prepare_step s (StCtl a SFlush) = PFlush (FCtl a) /\
  (forall pid rc, prepare_step s (StRel pid rc SFlush) = PFlush (FRel pid)) /\
  (forall pid off len, prepare_step s (StRet pid off len SFlush) = PFlush (FRet pid)) /\
  set_written_state (w + 0) w = SFlush.
Proof. exact complete_entry_is_flushed_next. Qed.

Theorem C16_flushed_control_leaves : forall o a o', flush_control o a = (o', true) -> glen (ob_ctl o') < glen (ob_ctl o).
Proof. exact flushed_control_leaves. Qed.

(* a weight on the three queues — per entry: 2 + unwritten bytes while being written, 1 while awaiting its flush,
   0 once sent — that every engine step strictly decreases: between two enqueues, within one connection, the engine
   performs at most `work` steps, and a packet is never written for ever or twice *)
Theorem C16_write_step_decreases_work : forall s st p bs w len n,
  WInv s -> next_step (s_ob s) = Some st -> prepare_step s st = PWrite p bs w len -> 1 <= n ->
  work (s_ob (fst (set_written s p (w + n) len))) < work (s_ob s).
Proof. exact write_step_decreases. Qed.

Theorem C16_flush_step_decreases_work : forall s st p now,
  WInv s -> next_step (s_ob s) = Some st -> prepare_step s st = PFlush p ->
  work (s_ob (fst (complete_flush s p now))) < work (s_ob s).
Proof. exact flush_step_decreases. Qed.

(* the machine: whenever an engine step reports progress the work of the session has strictly decreased *)
Theorem C16_progress_decreases_work : forall st now w w',
  WInv (w_sess w) -> next_step (s_ob (w_sess w)) = Some st ->
  perform_outbound_step st now w = (w', ODone true) ->
  work (s_ob (w_sess w')) < work (s_ob (w_sess w)).
Proof. exact progress_decreases_work. Qed.

(* the invariant WInv holds in every reachable world *)
Theorem C16_reachable_invariant : forall c, WInv (w_sess (Run.run_case c)).
Proof. exact reachable_WInv. Qed.

(* the engine loops terminate, whatever the transport does: with fuel above work + PINGREQ budget (at most 5) the
   loop never runs out — every iteration either ends the loop (idle, error, cancelled) or strictly lowers the measure *)
Theorem C16_drive_loop_terminates : forall fuel adv w,
  WInv (w_sess w) -> NA w -> M (w_sess w) < N.of_nat fuel -> snd (drive_loop fuel adv w) <> OFuel.
Proof. exact drive_loop_terminates. Qed.

Theorem C16_flush_outbound_terminates : forall fuel w,
  WInv (w_sess w) -> M (w_sess w) < N.of_nat fuel -> snd (flush_outbound fuel w) <> OFuel.
Proof. exact flush_outbound_terminates. Qed.

Theorem C16_op_drive_terminates : forall fuel w,
  WInv (w_sess w) -> NAl w -> M (w_sess w) < N.of_nat fuel -> snd (op_drive fuel w) <> OFuel.
Proof. exact op_drive_terminates. Qed.

(* the measure is bounded by the arena (at most 8 entries per queue, control packets of at most 5 bytes, retained
   packets inside the arena), so the model's fuel of 30 000 is never reached by drive() in any reachable world of a
   client whose transmit arena is at most 29 000 bytes: for every program, script and broker *)
Theorem C16_measure_bounded : forall s, Inv.Inv s -> M s <= lenN (ob_buf (s_ob s)) + 133.
Proof. exact M_bounded. Qed.

Theorem C16_reachable_drive_terminates : forall c, cf_tx (c_cfg c) <= 29000 ->
  let w := run_case c in halted w = false -> snd (op_drive FUEL w) <> OFuel.
Proof. exact reachable_drive_terminates. Qed.

(* a resumed connection with a retained publish to replay: the premises hold, drive() sends it and the work is 0 *)
Theorem C16_terminate_example :
  w_live ex_resumed = true /\ work (s_ob (w_sess ex_resumed)) = 13 /\ M (w_sess ex_resumed) < N.of_nat FUEL /\
  packet_available (s_reader (w_sess ex_resumed)) = false /\
  snd (op_drive FUEL ex_resumed) = ODone None /\ work (s_ob (w_sess (fst (op_drive FUEL ex_resumed)))) = 0.
Proof. exact terminate_example. Qed.

(* ---------------- the outbound half of quiescence ---------------- *)
(* Hd: a behaving transport (script []), a live handle, no broker size limit, no PINGREQ due, no half-written entry (as
   after every (re)connect: arm_replay puts every entry back at byte 0).  On such a connection one engine step takes the
   entry it selected all the way: written whole, flushed, marked sent - never an error, a dropped future or a lost entry *)
Theorem C16_healthy_step : forall st w, Hd w -> next_step (s_ob (w_sess w)) = Some st ->
  exists w', perform_outbound_step st (w_now w) w = (w', ODone true) /\ Hd w' /\
    s_reader (w_sess w') = s_reader (w_sess w) /\ w_now w' = w_now w.
Proof. exact healthy_perform. Qed.

(* and drive() sends EVERYTHING that is queued - owed acknowledgements, pending PUBRELs, retained packets to (re)send -
   and returns with nothing left to write: every entry is marked sent, the control queue is empty *)
Theorem C16_drive_sends_all : forall fuel w, Hd w -> NA w -> M (w_sess w) < N.of_nat fuel ->
  exists w', op_drive fuel w = (w', ODone None) /\ next_step (s_ob (w_sess w')) = None /\ Hd w' /\ NA w'.
Proof. exact drive_sends_all. Qed.

Theorem C16_poll_sends_all : forall fuel w st, Hd w -> NA w -> next_step (s_ob (w_sess w)) = Some st -> M (w_sess w) < N.of_nat (S fuel) ->
  exists w', op_poll (S fuel) w = (w', ODone None) /\ next_step (s_ob (w_sess w')) = None /\ Hd w' /\ NA w'.
Proof. exact poll_sends_all. Qed.

Theorem C16_drained_all_sent : forall o, Fr o -> next_step o = None ->
  Forall (fun e => ce_st e = SSent) (ob_ctl o) /\ Forall (fun e => le_st e = SSent) (ob_rel o) /\ Forall (fun e => re_st e = SSent) (ob_ret o).
Proof. exact drained_all_sent. Qed.

(* a resumed connection with a retained publish at byte 0: the premises hold, drive() replays it *)
Theorem C16_healthy_example :
  w_script ex_replay = [] /\ w_live ex_replay = true /\ rt_mps (s_rt (w_sess ex_replay)) = None /\
  rt_next_ping (s_rt (w_sess ex_replay)) = None /\ rt_ka_ms (s_rt (w_sess ex_replay)) = 0 /\
  rt_ping_timeout (s_rt (w_sess ex_replay)) = None /\
  map re_st (ob_ret (s_ob (w_sess ex_replay))) = [SWrite 0] /\ ob_ctl (s_ob (w_sess ex_replay)) = [] /\ ob_rel (s_ob (w_sess ex_replay)) = [] /\
  packet_available (s_reader (w_sess ex_replay)) = false /\ M (w_sess ex_replay) < N.of_nat FUEL /\
  snd (op_drive FUEL ex_replay) = ODone None /\
  map re_st (ob_ret (s_ob (w_sess (fst (op_drive FUEL ex_replay))))) = [SSent].
Proof. exact healthy_example. Qed.

(* ---------------- towards the broker: liveness of reading, and one exchange end to end ---------------- *)
(* the packet reader on a behaving transport: when the bytes of a whole canonically framed packet that fits the receive
   buffer have arrived, it assembles exactly that packet and stops with the packet available (any window sequence) *)
Theorem C16_reader_completes_arrived_packet : forall h rl body, varint_write (lenN body) = Some rl ->
  forall m fuel w k t,
  at_k h rl body (rd w) k -> lenN (h :: rl ++ body) - k <= N.of_nat m -> (m + 2 <= fuel)%nat -> w_script w = [] ->
  lenN (h :: rl ++ body) <= BIG ->
  (k < lenN (h :: rl ++ body) -> w_inq w = [(t, dropN k (h :: rl ++ body))] /\ t <= w_now w) ->
  (k = lenN (h :: rl ++ body) -> w_inq w = []) ->
  exists w', fill_packet_reader fuel None w = (w', FillOk) /\
    rdata (rd w') = h :: rl ++ body /\ rplen (rd w') = Some (lenN (h :: rl ++ body)) /\ rcap (rd w') = rcap (rd w) /\
    w_sess w' = set_reader (w_sess w) (rd w') /\ w_inq w' = [] /\ w_script w' = [] /\ w_now w' = w_now w.
Proof. exact fill_whole. Qed.

(* poll() with nothing left to write, no PINGREQ due or outstanding, one whole packet arrived: it behaves like poll() on the world
   in which that packet already sits complete in the reader *)
Theorem C16_poll_reads_arrived_packet : forall f w h rl body t,
  varint_write (lenN body) = Some rl ->
  let pkt := h :: rl ++ body in
  lenN pkt <= rcap (rd w) -> (N.to_nat (lenN pkt) + 2 <= f)%nat -> lenN pkt <= BIG ->
  w_live w = true -> rdata (rd w) = [] -> rplen (rd w) = None ->
  next_step (s_ob (w_sess w)) = None ->
  (forall d, rt_next_ping (s_rt (w_sess w)) = Some d -> w_now w < d) -> rt_ping_timeout (s_rt (w_sess w)) = None ->
  w_script w = [] -> w_inq w = [(t, pkt)] -> t <= w_now w ->
  exists w3, wait_for_progress (S f) w = wait_for_progress f w3 /\
    rdata (rd w3) = pkt /\ rplen (rd w3) = Some (lenN pkt) /\ rcap (rd w3) = rcap (rd w) /\
    w_sess w3 = set_reader (w_sess w) (rd w3) /\ w_inq w3 = [] /\ w_script w3 = [] /\ w_now w3 = w_now w /\ w_live w3 = true.
Proof. exact wait_reads_arrived_packet. Qed.

(* a PUBACK that has arrived completes its QoS 1 publish in ONE poll(): read, decoded, the retained PUBLISH released
   (every other retained packet untouched), the quota slot returned, progress reported, still nothing to write *)
Theorem C16_poll_completes_puback : forall w pid t,
  pid < 65536 -> 4 <= rcap (rd w) ->
  w_live w = true -> rdata (rd w) = [] -> rplen (rd w) = None ->
  arena_wf (s_ob (w_sess w)) -> next_step (s_ob (w_sess w)) = None ->
  (forall d, rt_next_ping (s_rt (w_sess w)) = Some d -> w_now w < d) -> rt_ping_timeout (s_rt (w_sess w)) = None ->
  w_script w = [] -> w_inq w = [(t, 64 :: [2] ++ u16_be pid)] -> t <= w_now w ->
  has_retained (s_ob (w_sess w)) pid = true ->
  exists w', op_poll FUEL w = (w', ODone None) /\ w_live w' = true /\ w_inq w' = [] /\
    (exists l', abs_remove pid (abs (s_ob (w_sess w))) = Some l' /\ abs (s_ob (w_sess w')) = l') /\
    ob_ctl (s_ob (w_sess w')) = ob_ctl (s_ob (w_sess w)) /\ ob_rel (s_ob (w_sess w')) = ob_rel (s_ob (w_sess w)) /\
    rt_quota (s_rt (w_sess w')) = N.min (N.min (rt_quota (s_rt (w_sess w)) + 1) 65535) (rt_maxquota (s_rt (w_sess w))) /\
    next_step (s_ob (w_sess w')) = None /\ packet_available (rd w') = false.
Proof. exact poll_completes_puback. Qed.

(* the general form: the arrived packet is decoded and handed to the session; if it is a message for the application
   poll() returns it, otherwise (and if nothing became writable) poll() reports progress - the session state is what
   handle_packet makes of it *)
Theorem C16_poll_handles_arrived : forall w h rl body t p s4 d,
  varint_write (lenN body) = Some rl ->
  let pkt := h :: rl ++ body in
  lenN pkt <= rcap (rd w) -> lenN pkt <= 29000 ->
  w_live w = true -> rdata (rd w) = [] -> rplen (rd w) = None ->
  next_step (s_ob (w_sess w)) = None ->
  (forall dd, rt_next_ping (s_rt (w_sess w)) = Some dd -> w_now w < dd) -> rt_ping_timeout (s_rt (w_sess w)) = None ->
  w_script w = [] -> w_inq w = [(t, pkt)] -> t <= w_now w ->
  from_buffer pkt = Some p ->
  handle_packet (set_reader (w_sess w) (reader_reset (rd w))) p = (s4, HOk d) ->
  (d = false -> next_step (s_ob s4) = None) ->
  exists w', op_poll FUEL w = (w', ODone (if d then Some p else None)) /\
    w_sess w' = s4 /\ w_live w' = true /\ w_inq w' = [] /\ w_now w' = w_now w.
Proof. exact poll_handles_arrived. Qed.

Theorem C16_puback_example :
  w_live ex_inflight = true /\ rdata (rd ex_inflight) = [] /\ rplen (rd ex_inflight) = None /\
  next_step (s_ob (w_sess ex_inflight)) = None /\
  rt_next_ping (s_rt (w_sess ex_inflight)) = None /\ rt_ping_timeout (s_rt (w_sess ex_inflight)) = None /\
  w_script ex_inflight = [] /\ w_inq ex_inflight = [(0, 64 :: [2] ++ [0; 1])] /\
  has_retained (s_ob (w_sess ex_inflight)) 1 = true /\ rt_quota (s_rt (w_sess ex_inflight)) = 7 /\
  snd (op_poll FUEL ex_inflight) = ODone None /\
  ob_ret (s_ob (w_sess (fst (op_poll FUEL ex_inflight)))) = [] /\
  rt_quota (s_rt (w_sess (fst (op_poll FUEL ex_inflight)))) = 8.
Proof. exact puback_example. Qed.

From Minimq Require Import Owed Replay.

(* what the healthy drive puts on the wire: exactly what the queues owed, nothing else *)
Theorem C16_drive_writes_owed : forall fuel adv w w' pr, Hd w -> NA w -> drive_loop fuel adv w = (w', ODone pr) ->
  w_wire w' = w_wire w ++ owed (s_ob (w_sess w)).
Proof. exact drive_loop_wire. Qed.

From Minimq Require Import Sends PingAt.

(* the same with no assumption on the keep-alive timer: a PINGREQ that falls due joins the queue before the first step (`s1`),
   and drive() sends everything, PINGREQ included *)
Theorem C16_drive_sends_all_any_timer : forall fuel w s1,
  Hc w -> NA w -> maybe_queue_pingreq (w_sess w) (w_now w) = (s1, None) -> M s1 < N.of_nat (S fuel) ->
  exists w', op_drive (S fuel) w = (w', ODone None) /\ next_step (s_ob (w_sess w')) = None /\ Hd w' /\ NA w' /\
    w_now w' = w_now w /\ w_wire w' = w_wire w ++ owed (s_ob s1).
Proof. exact drive_sends_all_any. Qed.

From Minimq Require Import Exchange.

(* ---- one whole QoS 1 exchange against the answering broker (mode 1: replies as MQTT prescribes), as ONE statement ----
   On a quiescent healthy connection without keep-alive: publish() (QoS 1 or 2; `ack_head`: PUBACK resp. PUBREC) returns its handle with exactly the encoded PUBLISH on the wire;
   the broker reads that packet whole and answers with the PUBACK of its identifier; the next poll() reads the PUBACK, completes
   the handle (nothing retained any more), returns the quota slot and leaves the session quiescent with nothing to write. *)
Theorem C16_publish_is_sent_and_answered : forall w r s2 op ps q,
  Hc w ->
  ob_ctl (s_ob (w_sess w)) = [] -> ob_rel (s_ob (w_sess w)) = [] -> ob_ret (s_ob (w_sess w)) = [] ->
  rt_ka_ms (s_rt (w_sess w)) = 0 -> rt_next_ping (s_rt (w_sess w)) = None -> rt_ping_timeout (s_rt (w_sess w)) = None ->
  w_broker w = 1 -> w_txbuf w = [] -> w_inq w = [] -> w_last_arrival w <= w_now w ->
  publish_middle (w_sess w) true r = (s2, MRetained op) ->
  effective_qos (w_sess w) (pr_qos r) = q -> q <> Q0 -> pr_props r = PSlice ps -> op_pid op < 65536 ->
  exists w1 bs cap off e,
    op_publish FUEL r w = (w1, ODone (Some op)) /\
    enc_publish cap (pub_request r q (op_pid op)) = SOk off bs /\
    w_wire w1 = w_wire w ++ bs /\
    w_inq w1 = [(w_now w, ack_head q :: [2] ++ u16_be (op_pid op))] /\
    Hc w1 /\ s_reader (w_sess w1) = s_reader (w_sess w) /\ w_now w1 = w_now w /\
    w_broker w1 = 1 /\ w_txbuf w1 = [] /\ w_last_arrival w1 = w_now w /\ rt_ka_ms (s_rt (w_sess w1)) = 0 /\
    rt_next_ping (s_rt (w_sess w1)) = None /\ rt_ping_timeout (s_rt (w_sess w1)) = None /\
    ob_ctl (s_ob (w_sess w1)) = [] /\ ob_rel (s_ob (w_sess w1)) = [] /\
    ob_ret (s_ob (w_sess w1)) = [sent_entry e] /\ re_pid e = op_pid op.
Proof. exact publish_is_sent_and_answered. Qed.

Theorem C16_qos1_exchange_completes : forall w r s2 op ps,
  Hc w ->
  ob_ctl (s_ob (w_sess w)) = [] -> ob_rel (s_ob (w_sess w)) = [] -> ob_ret (s_ob (w_sess w)) = [] ->
  rt_ka_ms (s_rt (w_sess w)) = 0 -> rt_next_ping (s_rt (w_sess w)) = None -> rt_ping_timeout (s_rt (w_sess w)) = None ->
  w_broker w = 1 -> w_txbuf w = [] -> w_inq w = [] -> w_last_arrival w <= w_now w ->
  rdata (rd w) = [] -> rplen (rd w) = None -> 4 <= rcap (rd w) ->
  publish_middle (w_sess w) true r = (s2, MRetained op) ->
  effective_qos (w_sess w) (pr_qos r) = Q1 -> pr_props r = PSlice ps -> op_pid op < 65536 ->
  exists w1 w2 bs cap off,
    op_publish FUEL r w = (w1, ODone (Some op)) /\
    enc_publish cap (pub_request r Q1 (op_pid op)) = SOk off bs /\ w_wire w1 = w_wire w ++ bs /\
    op_poll FUEL w1 = (w2, ODone None) /\ w_live w2 = true /\ w_inq w2 = [] /\
    ob_ctl (s_ob (w_sess w2)) = [] /\ ob_rel (s_ob (w_sess w2)) = [] /\ ob_ret (s_ob (w_sess w2)) = [] /\
    next_step (s_ob (w_sess w2)) = None /\
    rt_quota (s_rt (w_sess w2)) = N.min (N.min (rt_quota (s_rt (w_sess w1)) + 1) 65535) (rt_maxquota (s_rt (w_sess w1))).
Proof. exact qos1_exchange_completes. Qed.

Theorem C16_exchange_example :
  snd (publish_middle (w_sess ex_b1) true ex_pub) = MRetained ex_op1 /\
  snd (op_publish FUEL ex_pub ex_b1) = ODone (Some ex_op1) /\
  w_wire (fst (op_publish FUEL ex_pub ex_b1)) = w_wire ex_b1 ++ [50; 9; 0; 1; 116; 0; 1; 0; 1; 2; 3] /\
  w_inq (fst (op_publish FUEL ex_pub ex_b1)) = [(0, [64; 2; 0; 1])] /\
  snd (op_poll FUEL (fst (op_publish FUEL ex_pub ex_b1))) = ODone None /\
  ob_ret (s_ob (w_sess (fst (op_poll FUEL (fst (op_publish FUEL ex_pub ex_b1)))))) = [].
Proof. exact exchange_example. Qed.

Theorem C16_exchange_hyps_met :
  Hc ex_b1 /\
  ob_ctl (s_ob (w_sess ex_b1)) = [] /\ ob_rel (s_ob (w_sess ex_b1)) = [] /\ ob_ret (s_ob (w_sess ex_b1)) = [] /\
  rt_ka_ms (s_rt (w_sess ex_b1)) = 0 /\ rt_next_ping (s_rt (w_sess ex_b1)) = None /\ rt_ping_timeout (s_rt (w_sess ex_b1)) = None /\
  w_broker ex_b1 = 1 /\ w_txbuf ex_b1 = [] /\ w_inq ex_b1 = [] /\ w_last_arrival ex_b1 <= w_now ex_b1 /\
  rdata (rd ex_b1) = [] /\ rplen (rd ex_b1) = None /\ 4 <= rcap (rd ex_b1) /\
  publish_middle (w_sess ex_b1) true ex_pub = (fst (publish_middle (w_sess ex_b1) true ex_pub), MRetained ex_op1) /\
  effective_qos (w_sess ex_b1) (pr_qos ex_pub) = Q1 /\ pr_props ex_pub = PSlice [] /\ op_pid ex_op1 < 65536.
Proof. exact exchange_hyps_met. Qed.

From Minimq Require Import Exchange2.

(* ---- and one whole QoS 2 exchange: publish(), poll() (PUBREC in, the retained PUBLISH dropped, PUBREL written and flushed, the
   broker answers PUBCOMP), poll() (PUBCOMP in): nothing retained, nothing to release, the quota slot returned ---- *)
Theorem C16_poll_pubrec_sends_pubrel : forall w pid e t,
  Hc w -> pid < 65536 -> 4 <= rcap (rd w) -> rdata (rd w) = [] -> rplen (rd w) = None ->
  ob_ctl (s_ob (w_sess w)) = [] -> ob_rel (s_ob (w_sess w)) = [] -> ob_ret (s_ob (w_sess w)) = [sent_entry e] -> re_pid e = pid ->
  rt_ka_ms (s_rt (w_sess w)) = 0 -> rt_next_ping (s_rt (w_sess w)) = None -> rt_ping_timeout (s_rt (w_sess w)) = None ->
  w_broker w = 1 -> w_txbuf w = [] -> w_inq w = [(t, 80 :: [2] ++ u16_be pid)] -> t <= w_now w -> w_last_arrival w <= w_now w ->
  exists w',
    op_poll FUEL w = (w', ODone None) /\ w_wire w' = w_wire w ++ rel_bytes pid 0 /\
    w_inq w' = [(w_now w, 112 :: [2] ++ u16_be pid)] /\
    Hc w' /\ rdata (rd w') = [] /\ rplen (rd w') = None /\ rcap (rd w') = rcap (rd w) /\ w_now w' = w_now w /\
    ob_ctl (s_ob (w_sess w')) = [] /\ ob_ret (s_ob (w_sess w')) = [] /\ ob_rel (s_ob (w_sess w')) = [rel_entry pid SSent] /\
    rt_ka_ms (s_rt (w_sess w')) = 0 /\ rt_next_ping (s_rt (w_sess w')) = None /\ rt_ping_timeout (s_rt (w_sess w')) = None /\
    w_broker w' = 1 /\ w_txbuf w' = [] /\ w_last_arrival w' = w_now w /\
    rt_quota (s_rt (w_sess w')) = rt_quota (s_rt (w_sess w)) /\ rt_maxquota (s_rt (w_sess w')) = rt_maxquota (s_rt (w_sess w)).
Proof. exact poll_pubrec_sends_pubrel. Qed.

Theorem C16_qos2_exchange_completes : forall w r s2 op ps,
  Hc w ->
  ob_ctl (s_ob (w_sess w)) = [] -> ob_rel (s_ob (w_sess w)) = [] -> ob_ret (s_ob (w_sess w)) = [] ->
  rt_ka_ms (s_rt (w_sess w)) = 0 -> rt_next_ping (s_rt (w_sess w)) = None -> rt_ping_timeout (s_rt (w_sess w)) = None ->
  w_broker w = 1 -> w_txbuf w = [] -> w_inq w = [] -> w_last_arrival w <= w_now w ->
  rdata (rd w) = [] -> rplen (rd w) = None -> 4 <= rcap (rd w) ->
  publish_middle (w_sess w) true r = (s2, MRetained op) ->
  effective_qos (w_sess w) (pr_qos r) = Q2 -> pr_props r = PSlice ps -> op_pid op < 65536 ->
  exists w1 w2 w3 bs cap off,
    op_publish FUEL r w = (w1, ODone (Some op)) /\
    enc_publish cap (pub_request r Q2 (op_pid op)) = SOk off bs /\ w_wire w1 = w_wire w ++ bs /\
    op_poll FUEL w1 = (w2, ODone None) /\ w_wire w2 = w_wire w1 ++ rel_bytes (op_pid op) 0 /\
    op_poll FUEL w2 = (w3, ODone None) /\ w_live w3 = true /\ w_inq w3 = [] /\
    ob_ctl (s_ob (w_sess w3)) = [] /\ ob_rel (s_ob (w_sess w3)) = [] /\ ob_ret (s_ob (w_sess w3)) = [] /\
    next_step (s_ob (w_sess w3)) = None /\
    rt_quota (s_rt (w_sess w3)) = N.min (N.min (rt_quota (s_rt (w_sess w1)) + 1) 65535) (rt_maxquota (s_rt (w_sess w1))).
Proof. exact qos2_exchange_completes. Qed.

Theorem C16_exchange2_example :
  publish_middle (w_sess ex_b1) true ex_pubq2 = (fst (publish_middle (w_sess ex_b1) true ex_pubq2), MRetained ex_op2) /\
  effective_qos (w_sess ex_b1) (pr_qos ex_pubq2) = Q2 /\
  snd (op_publish FUEL ex_pubq2 ex_b1) = ODone (Some ex_op2) /\
  w_wire ex_q2a = w_wire ex_b1 ++ [52; 7; 0; 1; 117; 0; 1; 0; 9] /\ w_inq ex_q2a = [(0, [80; 2; 0; 1])] /\
  snd (op_poll FUEL ex_q2a) = ODone None /\ w_wire ex_q2b = w_wire ex_q2a ++ [98; 3; 0; 1; 0] /\ w_inq ex_q2b = [(0, [112; 2; 0; 1])] /\
  snd (op_poll FUEL ex_q2b) = ODone None /\ ob_ret (s_ob (w_sess ex_q2c)) = [] /\ ob_rel (s_ob (w_sess ex_q2c)) = [] /\
  rt_quota (s_rt (w_sess ex_q2c)) = rt_quota (s_rt (w_sess ex_b1)).
Proof. exact exchange2_example. Qed.

From Minimq Require Import Exchange3.

(* ---- and SUBSCRIBE / UNSUBSCRIBE: the request on the wire, the broker's SUBACK / UNSUBACK, the handle completed by one poll() ---- *)
Theorem C16_subscribe_exchange_completes : forall w topics ps s2 op,
  Hc w ->
  ob_ctl (s_ob (w_sess w)) = [] -> ob_rel (s_ob (w_sess w)) = [] -> ob_ret (s_ob (w_sess w)) = [] ->
  rt_ka_ms (s_rt (w_sess w)) = 0 -> rt_next_ping (s_rt (w_sess w)) = None -> rt_ping_timeout (s_rt (w_sess w)) = None ->
  w_broker w = 1 -> w_txbuf w = [] -> w_inq w = [] -> w_last_arrival w <= w_now w ->
  rdata (rd w) = [] -> rplen (rd w) = None -> 6 <= rcap (rd w) ->
  topics <> [] -> props_valid_for (PSlice ps) CtxSubscribe = true ->
  subscribe_middle (w_sess w) topics ps = (s2, MRetained op) -> op_pid op < 65536 ->
  exists w1 w2 bs cap off,
    op_subscribe FUEL topics ps w = (w1, ODone (Some op)) /\
    enc_subscribe cap {| sq_pid := op_pid op; sq_props := ps; sq_topics := topics |} = SOk off bs /\ w_wire w1 = w_wire w ++ bs /\
    w_inq w1 = [(w_now w, 144 :: [4] ++ u16_be (op_pid op) ++ [0; 0])] /\
    op_poll FUEL w1 = (w2, ODone None) /\ w_live w2 = true /\ w_inq w2 = [] /\
    ob_ctl (s_ob (w_sess w2)) = [] /\ ob_rel (s_ob (w_sess w2)) = [] /\ ob_ret (s_ob (w_sess w2)) = [] /\
    next_step (s_ob (w_sess w2)) = None.
Proof. exact subscribe_exchange_completes. Qed.

Theorem C16_unsubscribe_exchange_completes : forall w topics ps s2 op,
  Hc w ->
  ob_ctl (s_ob (w_sess w)) = [] -> ob_rel (s_ob (w_sess w)) = [] -> ob_ret (s_ob (w_sess w)) = [] ->
  rt_ka_ms (s_rt (w_sess w)) = 0 -> rt_next_ping (s_rt (w_sess w)) = None -> rt_ping_timeout (s_rt (w_sess w)) = None ->
  w_broker w = 1 -> w_txbuf w = [] -> w_inq w = [] -> w_last_arrival w <= w_now w ->
  rdata (rd w) = [] -> rplen (rd w) = None -> 6 <= rcap (rd w) ->
  topics <> [] -> props_valid_for (PSlice ps) CtxUnsubscribe = true ->
  unsubscribe_middle (w_sess w) topics ps = (s2, MRetained op) -> op_pid op < 65536 ->
  exists w1 w2 bs cap off,
    op_unsubscribe FUEL topics ps w = (w1, ODone (Some op)) /\
    enc_unsubscribe cap {| uq_pid := op_pid op; uq_props := ps; uq_topics := topics |} = SOk off bs /\ w_wire w1 = w_wire w ++ bs /\
    w_inq w1 = [(w_now w, 176 :: [4] ++ u16_be (op_pid op) ++ [0; 0])] /\
    op_poll FUEL w1 = (w2, ODone None) /\ w_live w2 = true /\ w_inq w2 = [] /\
    ob_ctl (s_ob (w_sess w2)) = [] /\ ob_rel (s_ob (w_sess w2)) = [] /\ ob_ret (s_ob (w_sess w2)) = [] /\
    next_step (s_ob (w_sess w2)) = None.
Proof. exact unsubscribe_exchange_completes. Qed.

Theorem C16_exchange3_example :
  snd (subscribe_middle (w_sess ex_b1) [(ex_filter, ex_so1)] []) = MRetained {| op_kind := 2; op_pid := 1; op_gen := 1 |} /\
  snd (op_subscribe FUEL [(ex_filter, ex_so1)] [] ex_b1) = ODone (Some {| op_kind := 2; op_pid := 1; op_gen := 1 |}) /\
  w_wire ex_sub_a = w_wire ex_b1 ++ [130; 9; 0; 1; 0; 0; 3; 102; 47; 97; 1] /\ w_inq ex_sub_a = [(0, [144; 4; 0; 1; 0; 0])] /\
  snd (op_poll FUEL ex_sub_a) = ODone None /\ ob_ret (s_ob (w_sess (fst (op_poll FUEL ex_sub_a)))) = [] /\
  snd (op_unsubscribe FUEL [ex_filter] [] ex_b1) = ODone (Some {| op_kind := 3; op_pid := 1; op_gen := 1 |}) /\
  w_wire ex_unsub_a = w_wire ex_b1 ++ [162; 8; 0; 1; 0; 0; 3; 102; 47; 97] /\ w_inq ex_unsub_a = [(0, [176; 4; 0; 1; 0; 0])] /\
  snd (op_poll FUEL ex_unsub_a) = ODone None /\ ob_ret (s_ob (w_sess (fst (op_poll FUEL ex_unsub_a)))) = [].
Proof. exact exchange3_example. Qed.

Print Assumptions C16_poll_never_returns_idle.
Print Assumptions C16_sent_entries_not_resent.
Print Assumptions C16_write_step_advances.
Print Assumptions C16_complete_entry_is_flushed_next.
Print Assumptions C16_flushed_control_leaves.
Print Assumptions C16_write_step_decreases_work.
Print Assumptions C16_flush_step_decreases_work.
From Minimq Require Import History.

(* ---- histories of any length.  `Idle`: a healthy connection without keep-alive with nothing queued, nothing half read, nothing
   in flight between client and broker.  One complete QoS 1 exchange leads from idle to idle, so every history of QoS 1 publishes,
   each followed by one poll(), completes every one of them: publish() returns its handle having put exactly the encoded PUBLISH
   on the wire, the broker answers, poll() writes nothing and leaves the handle complete, window and arena as before. ---- *)
Theorem C16_publish_accepted_when_idle : forall s r q,
  ob_ret (s_ob s) = [] -> rt_mps (s_rt s) = None -> rt_quota (s_rt s) <> 0 -> 5 <= ob_cap (s_ob s) ->
  props_valid_for (pr_props r) CtxPublish = true -> effective_qos s (pr_qos r) = q -> q <> Q0 ->
  (forall id, exists off bs, enc_publish (ob_cap (s_ob s)) (pub_request r q id) = SOk off bs) ->
  exists s2 op, publish_middle s true r = (s2, MRetained op).
Proof. exact publish_accepted_idle. Qed.

Theorem C16_qos1_exchange_idle_to_idle : forall w r s2 op ps,
  Idle w ->
  publish_middle (w_sess w) true r = (s2, MRetained op) ->
  effective_qos (w_sess w) (pr_qos r) = Q1 -> pr_props r = PSlice ps -> op_pid op < 65536 ->
  exists w1 w2 bs cap off,
    op_publish FUEL r w = (w1, ODone (Some op)) /\
    enc_publish cap (pub_request r Q1 (op_pid op)) = SOk off bs /\ w_wire w1 = w_wire w ++ bs /\
    op_poll FUEL w1 = (w2, ODone None) /\ w_wire w2 = w_wire w1 /\ w_now w2 = w_now w /\
    has_retained (s_ob (w_sess w2)) (op_pid op) = false /\
    rt_quota (s_rt (w_sess w2)) = N.min (N.min (rt_quota (s_rt (w_sess w)) - 1 + 1) 65535) (rt_maxquota (s_rt (w_sess w))) /\
    rt_maxquota (s_rt (w_sess w2)) = rt_maxquota (s_rt (w_sess w)) /\ rt_quota (s_rt (w_sess w)) <> 0 /\
    ob_cap (s_ob (w_sess w2)) = ob_cap (s_ob (w_sess w)) /\
    rt_maxqos (s_rt (w_sess w2)) = rt_maxqos (s_rt (w_sess w)) /\
    Idle w2.
Proof. exact qos1_exchange_idle. Qed.

Theorem C16_qos1_history_completes : forall rs w,
  IdleQ w -> wanted (ob_cap (s_ob (w_sess w))) rs w ->
  exists w', q1_history w rs w' /\ IdleQ w' /\ w_now w' = w_now w.
Proof. exact qos1_history_completes. Qed.

Theorem C16_history_hyps_met :
  IdleQ ex_b1 /\ wanted (ob_cap (s_ob (w_sess ex_b1))) [ex_pub; ex_pub] ex_b1.
Proof. exact history_hyps_met. Qed.

(* ---- the same for all four acknowledged operations, mixed in any order: SUBSCRIBE, UNSUBSCRIBE, QoS 1 and QoS 2 publishes (the
   latter with two polls).  `request_ok`: the request is valid, fits the transmit buffer and (publishes) is not QoS 0 for the
   session it meets; `exchange`: the operation returns its handle, then poll() is called once (twice for QoS 2);
   `history`: after each exchange the handle is neither retained nor awaiting release. ---- *)
Theorem C16_exchange_idle_to_idle : forall w q,
  IdleQ w -> request_ok (ob_cap (s_ob (w_sess w))) w q ->
  exists op w2, exchange w q op w2 /\
    has_retained (s_ob (w_sess w2)) (op_pid op) = false /\ has_pending_release (s_ob (w_sess w2)) (op_pid op) = false /\
    w_now w2 = w_now w /\ ob_cap (s_ob (w_sess w2)) = ob_cap (s_ob (w_sess w)) /\ IdleQ w2 /\
    rt_maxqos (s_rt (w_sess w2)) = rt_maxqos (s_rt (w_sess w)).
Proof. exact exchange_idle. Qed.

Theorem C16_history_completes : forall qs w,
  IdleQ w -> wanted_all (ob_cap (s_ob (w_sess w))) qs w ->
  exists w', history w qs w' /\ IdleQ w' /\ w_now w' = w_now w.
Proof. exact history_completes. Qed.

(* the requests judged once, against the initial session: no exchange changes the configuration (`C16_exchange_keeps_config`: no
   step of the session LTS does, `CfgFrame.v`) or the broker's Maximum QoS, so a request is the same QoS all along *)
Theorem C16_exchange_keeps_config : forall w q op w2, exchange w q op w2 -> s_cfg (w_sess w2) = s_cfg (w_sess w).
Proof. exact exchange_cfg. Qed.

Theorem C16_history_completes_static : forall qs w,
  IdleQ w -> Forall (request_ok (ob_cap (s_ob (w_sess w))) w) qs ->
  exists w', history w qs w' /\ IdleQ w' /\ w_now w' = w_now w.
Proof. exact history_completes_static. Qed.

Theorem C16_static_history_hyps_met :
  IdleQ ex_b1 /\
  Forall (request_ok (ob_cap (s_ob (w_sess ex_b1))) ex_b1) [ex_req_sub; ex_req_q2; ReqPublish ex_pub; ReqUnsubscribe [ex_filter] []; ex_req_q2].
Proof. exact static_history_hyps_met. Qed.

Theorem C16_qos2_exchange_idle_to_idle : forall w r s2 op ps,
  Idle w ->
  publish_middle (w_sess w) true r = (s2, MRetained op) ->
  effective_qos (w_sess w) (pr_qos r) = Q2 -> pr_props r = PSlice ps -> op_pid op < 65536 ->
  exists w1 w2 w3 bs cap off,
    op_publish FUEL r w = (w1, ODone (Some op)) /\
    enc_publish cap (pub_request r Q2 (op_pid op)) = SOk off bs /\ w_wire w1 = w_wire w ++ bs /\
    op_poll FUEL w1 = (w2, ODone None) /\ w_wire w2 = w_wire w1 ++ rel_bytes (op_pid op) 0 /\
    op_poll FUEL w2 = (w3, ODone None) /\ w_wire w3 = w_wire w2 /\ w_now w3 = w_now w /\
    has_retained (s_ob (w_sess w3)) (op_pid op) = false /\ has_pending_release (s_ob (w_sess w3)) (op_pid op) = false /\
    rt_quota (s_rt (w_sess w3)) = N.min (N.min (rt_quota (s_rt (w_sess w)) - 1 + 1) 65535) (rt_maxquota (s_rt (w_sess w))) /\
    rt_maxquota (s_rt (w_sess w3)) = rt_maxquota (s_rt (w_sess w)) /\ rt_quota (s_rt (w_sess w)) <> 0 /\
    ob_cap (s_ob (w_sess w3)) = ob_cap (s_ob (w_sess w)) /\
    rt_maxqos (s_rt (w_sess w3)) = rt_maxqos (s_rt (w_sess w)) /\
    Idle w3.
Proof. exact qos2_exchange_idle. Qed.

Theorem C16_subscribe_exchange_idle_to_idle : forall w topics ps s2 op,
  Idle w -> topics <> [] -> props_valid_for (PSlice ps) CtxSubscribe = true ->
  subscribe_middle (w_sess w) topics ps = (s2, MRetained op) -> op_pid op < 65536 ->
  exists w1 w2 bs cap off,
    op_subscribe FUEL topics ps w = (w1, ODone (Some op)) /\
    enc_subscribe cap {| sq_pid := op_pid op; sq_props := ps; sq_topics := topics |} = SOk off bs /\ w_wire w1 = w_wire w ++ bs /\
    op_poll FUEL w1 = (w2, ODone None) /\ w_wire w2 = w_wire w1 /\ w_now w2 = w_now w /\
    has_retained (s_ob (w_sess w2)) (op_pid op) = false /\
    s_rt (w_sess w2) = s_rt (w_sess w) /\ ob_cap (s_ob (w_sess w2)) = ob_cap (s_ob (w_sess w)) /\
    Idle w2.
Proof. exact subscribe_exchange_idle. Qed.

Theorem C16_unsubscribe_exchange_idle_to_idle : forall w topics ps s2 op,
  Idle w -> topics <> [] -> props_valid_for (PSlice ps) CtxUnsubscribe = true ->
  unsubscribe_middle (w_sess w) topics ps = (s2, MRetained op) -> op_pid op < 65536 ->
  exists w1 w2 bs cap off,
    op_unsubscribe FUEL topics ps w = (w1, ODone (Some op)) /\
    enc_unsubscribe cap {| uq_pid := op_pid op; uq_props := ps; uq_topics := topics |} = SOk off bs /\ w_wire w1 = w_wire w ++ bs /\
    op_poll FUEL w1 = (w2, ODone None) /\ w_wire w2 = w_wire w1 /\ w_now w2 = w_now w /\
    has_retained (s_ob (w_sess w2)) (op_pid op) = false /\
    s_rt (w_sess w2) = s_rt (w_sess w) /\ ob_cap (s_ob (w_sess w2)) = ob_cap (s_ob (w_sess w)) /\
    Idle w2.
Proof. exact unsubscribe_exchange_idle. Qed.

Theorem C16_mixed_history_hyps_met :
  IdleQ ex_b1 /\ wanted_all (ob_cap (s_ob (w_sess ex_b1))) [ex_req_sub; ex_req_q2] ex_b1.
Proof. exact mixed_history_hyps_met. Qed.

From Minimq Require Import Reconnect ConnectIdle.

(* an inbound QoS 0 message arriving between two exchanges is delivered by one poll(), exactly as decoded, and leaves the
   connection idle: nothing written, queues, window and timers untouched *)
Theorem C16_inbound_qos0_idle : forall w h rl body t topic r dp props payload,
  Hc w ->
  ob_ctl (s_ob (w_sess w)) = [] -> ob_rel (s_ob (w_sess w)) = [] -> ob_ret (s_ob (w_sess w)) = [] ->
  rt_ka_ms (s_rt (w_sess w)) = 0 -> rt_next_ping (s_rt (w_sess w)) = None -> rt_ping_timeout (s_rt (w_sess w)) = None ->
  w_broker w = 1 -> w_txbuf w = [] -> w_last_arrival w <= w_now w ->
  rdata (rd w) = [] -> rplen (rd w) = None -> 6 <= rcap (rd w) ->
  varint_write (lenN body) = Some rl ->
  let pkt := h :: rl ++ body in
  w_inq w = [(t, pkt)] -> t <= w_now w -> lenN pkt <= rcap (rd w) -> lenN pkt <= 29000 ->
  from_buffer pkt = Some (RPublish topic None Q0 r dp props payload) ->
  exists w', op_poll FUEL w = (w', ODone (Some (RPublish topic None Q0 r dp props payload))) /\
    w_wire w' = w_wire w /\ w_now w' = w_now w /\ s_rt (w_sess w') = s_rt (w_sess w) /\ s_ob (w_sess w') = s_ob (w_sess w) /\
    Idle w'.
Proof. exact inbound_qos0_idle. Qed.

(* ---- histories that interleave the application's requests with inbound QoS 0 messages (`Mixed.v`): an event is a request
   (one complete exchange, `History.exchange`) or the arrival of one whole PUBLISH from the broker (`Run.feed`, no delay)
   followed by one poll().  From idle, for every list of events of any length and in any order: every request completes with
   its identifier released, every message is returned by its poll() exactly as decoded with nothing written to the wire, and
   the connection ends idle at the same instant. ---- *)
From Minimq Require Import Mixed.
Theorem C16_message_idle : forall w pkt,
  IdleQ w -> msg_ok w pkt ->
  exists w2, estep w (EvMsg pkt) w2 /\ IdleQ w2 /\ w_now w2 = w_now w /\
    ob_cap (s_ob (w_sess w2)) = ob_cap (s_ob (w_sess w)).
Proof. exact message_idle. Qed.

Theorem C16_mixed_history_completes : forall es w,
  IdleQ w -> wanted_events (ob_cap (s_ob (w_sess w))) es w ->
  exists w', mixed_history w es w' /\ IdleQ w' /\ w_now w' = w_now w.
Proof. exact mixed_history_completes. Qed.

(* what a step of such a history is, spelled out (the definitions are in Mixed.v; these pin them) *)
Theorem C16_estep_msg : forall w pkt w2, estep w (EvMsg pkt) w2 ->
  exists p, from_buffer pkt = Some p /\ op_poll FUEL (feed w 0 pkt) = (w2, ODone (Some p)) /\ w_wire w2 = w_wire w.
Proof. exact estep_msg_inv. Qed.
Theorem C16_estep_req : forall w q w2, estep w (EvReq q) w2 ->
  exists op, exchange w q op w2 /\
    has_retained (s_ob (w_sess w2)) (op_pid op) = false /\ has_pending_release (s_ob (w_sess w2)) (op_pid op) = false.
Proof. exact estep_req_inv. Qed.

Theorem C16_mixed_events_hyps_met :
  IdleQ ex_b1 /\ wanted_events (ob_cap (s_ob (w_sess ex_b1))) [EvMsg ex_msg; EvReq ex_req_sub] ex_b1.
Proof. exact mixed_events_hyps_met. Qed.

(* ---- where those histories start: connect() of a client without keep-alive and with nothing in flight — a client that has
   never connected as well as one resuming its session — on a behaving transport answered by a conformant broker succeeds and
   ends in `IdleQ` (once the application holds the handle), for every configuration in which the CONNECT fits.  Hence: connect,
   then any list of acknowledged requests that are valid, not QoS 0 and fit the transmit buffer, each followed by its poll():
   the connect succeeds, every request completes, and the session ends idle. ---- *)
Theorem C16_connect_establishes_idle : forall w off bs,
  w_script w = [] -> w_broker w = 2 -> w_inq w = [] -> w_txbuf w = [] -> w_last_arrival w <= w_now w ->
  6 <= rcap (s_reader (w_sess w)) ->
  let s2 := connect_scratch (w_sess w) in
  enc_connect (ob_cap (s_ob s2) - ob_used (s_ob s2)) (connect_request s2) = SOk off bs -> lenN bs <= BIG ->
  WInv (w_sess w) ->
  ob_ctl (s_ob (w_sess w)) = [] -> ob_rel (s_ob (w_sess w)) = [] -> ob_ret (s_ob (w_sess w)) = [] ->
  (cf_keepalive_s (s_cfg (w_sess w)) mod 65536) * 1000 = 0 ->
  5 <= ob_cap (s_ob (w_sess w)) -> ob_cap (s_ob (w_sess w)) <= BIG ->
  exists w1 ev,
    op_connect FUEL w = (w1, ODone ev) /\ ev = (if s_sp (w_sess w) then 1 else 0) /\
    w_wire w1 = w_wire w ++ bs /\ w_now w1 = w_now w /\
    ob_cap (s_ob (w_sess w1)) = ob_cap (s_ob (w_sess w)) /\ s_cfg (w_sess w1) = s_cfg (w_sess w) /\
    rt_maxqos (s_rt (w_sess w1)) = None /\
    IdleQ (upd_broker (upd_live w1 true true ev) 1).
Proof. exact connect_establishes_idle. Qed.

Theorem C16_connect_then_history_completes : forall w off bs qs,
  w_script w = [] -> w_broker w = 2 -> w_inq w = [] -> w_txbuf w = [] -> w_last_arrival w <= w_now w ->
  6 <= rcap (s_reader (w_sess w)) ->
  let s2 := connect_scratch (w_sess w) in
  enc_connect (ob_cap (s_ob s2) - ob_used (s_ob s2)) (connect_request s2) = SOk off bs -> lenN bs <= BIG ->
  WInv (w_sess w) ->
  ob_ctl (s_ob (w_sess w)) = [] -> ob_rel (s_ob (w_sess w)) = [] -> ob_ret (s_ob (w_sess w)) = [] ->
  (cf_keepalive_s (s_cfg (w_sess w)) mod 65536) * 1000 = 0 ->
  5 <= ob_cap (s_ob (w_sess w)) -> ob_cap (s_ob (w_sess w)) <= BIG ->
  Forall (request_plain (ob_cap (s_ob (w_sess w)))) qs ->
  exists w1 ev w',
    op_connect FUEL w = (w1, ODone ev) /\ w_wire w1 = w_wire w ++ bs /\
    history (upd_broker (upd_live w1 true true ev) 1) qs w' /\ IdleQ w' /\ w_now w' = w_now w.
Proof. exact connect_then_history_completes. Qed.

Theorem C16_connect_then_history_hyps_met :
  w_script ex_pre = [] /\ w_broker ex_pre = 2 /\ w_inq ex_pre = [] /\ w_txbuf ex_pre = [] /\ w_last_arrival ex_pre <= w_now ex_pre /\
  6 <= rcap (s_reader (w_sess ex_pre)) /\
  (exists off, enc_connect (ob_cap (s_ob (connect_scratch (w_sess ex_pre))) - ob_used (s_ob (connect_scratch (w_sess ex_pre))))
                           (connect_request (connect_scratch (w_sess ex_pre))) = SOk off ex_connect_bytes) /\
  lenN ex_connect_bytes <= BIG /\ WInv (w_sess ex_pre) /\
  ob_ctl (s_ob (w_sess ex_pre)) = [] /\ ob_rel (s_ob (w_sess ex_pre)) = [] /\ ob_ret (s_ob (w_sess ex_pre)) = [] /\
  (cf_keepalive_s (s_cfg (w_sess ex_pre)) mod 65536) * 1000 = 0 /\
  5 <= ob_cap (s_ob (w_sess ex_pre)) /\ ob_cap (s_ob (w_sess ex_pre)) <= BIG /\
  Forall (request_plain (ob_cap (s_ob (w_sess ex_pre)))) [ex_req_sub; ex_req_q2; ReqPublish ex_pub; ReqUnsubscribe [ex_filter] []].
Proof. exact connect_then_history_hyps_met. Qed.

Print Assumptions C16_progress_decreases_work.
Print Assumptions C16_reachable_invariant.
Print Assumptions C16_drive_loop_terminates.
Print Assumptions C16_flush_outbound_terminates.
Print Assumptions C16_op_drive_terminates.
Print Assumptions C16_terminate_example.
Print Assumptions C16_measure_bounded.
Print Assumptions C16_reachable_drive_terminates.
Print Assumptions C16_reader_completes_arrived_packet.
Print Assumptions C16_poll_reads_arrived_packet.
Print Assumptions C16_poll_completes_puback.
Print Assumptions C16_puback_example.
Print Assumptions C16_poll_handles_arrived.
Print Assumptions C16_healthy_step.
Print Assumptions C16_drive_sends_all.
Print Assumptions C16_drained_all_sent.
Print Assumptions C16_healthy_example.
Print Assumptions C16_poll_sends_all.
Print Assumptions C16_drive_writes_owed.
Print Assumptions C16_drive_sends_all_any_timer.
Print Assumptions C16_publish_is_sent_and_answered.
Print Assumptions C16_qos1_exchange_completes.
Print Assumptions C16_exchange_example.
Print Assumptions C16_exchange_hyps_met.
Print Assumptions C16_poll_pubrec_sends_pubrel.
Print Assumptions C16_qos2_exchange_completes.
Print Assumptions C16_exchange2_example.
Print Assumptions C16_subscribe_exchange_completes.
Print Assumptions C16_unsubscribe_exchange_completes.
Print Assumptions C16_exchange3_example.
Print Assumptions C16_publish_accepted_when_idle.
Print Assumptions C16_qos1_exchange_idle_to_idle.
Print Assumptions C16_qos1_history_completes.
Print Assumptions C16_history_hyps_met.
Print Assumptions C16_exchange_idle_to_idle.
Print Assumptions C16_history_completes.
Print Assumptions C16_qos2_exchange_idle_to_idle.
Print Assumptions C16_subscribe_exchange_idle_to_idle.
Print Assumptions C16_unsubscribe_exchange_idle_to_idle.
Print Assumptions C16_mixed_history_hyps_met.
Print Assumptions C16_exchange_keeps_config.
Print Assumptions C16_history_completes_static.
Print Assumptions C16_static_history_hyps_met.
Print Assumptions C16_connect_establishes_idle.
Print Assumptions C16_connect_then_history_completes.
Print Assumptions C16_connect_then_history_hyps_met.
Print Assumptions C16_inbound_qos0_idle.
Print Assumptions C16_message_idle.
Print Assumptions C16_mixed_history_completes.
Print Assumptions C16_estep_msg.
Print Assumptions C16_estep_req.
Print Assumptions C16_mixed_events_hyps_met.
